(* C15 — secured connections honour the net.Conn stream contract for any buffer size.
   grpc_read = NoiseGrpcConn.Read, buf_read = NoiseConn.Read and connKit.Read,
   tcp_write_records = NoiseConn.Write chunking, grpc_write_records = NoiseGrpcConn.Write. *)
From Coq Require Import ZArith List Lia.
From LNC Require Import Noise NoiseRecord NoiseStream.
Import ListNotations.
Open Scope Z_scope.

(* any record sequence, any sequence of buffer sizes: n <= len(buf) for every Read, and
   the bytes read so far are a prefix of the bytes written — nothing lost, duplicated or reordered *)
Theorem c15_read_contract : forall rd, rd = grpc_read \/ rd = buf_read ->
  forall pending src sizes, Forall (fun b => 0 <= b) sizes ->
  is_prefix (concat (reads rd pending src sizes)) (pending ++ concat src)
  /\ Forall2 (fun out b => len out <= b) (reads rd pending src sizes) sizes.
Proof. exact reads_seq. Qed.
Print Assumptions c15_read_contract.

(* no byte is dropped by a Read: output + what is kept + what is still to come = what there was.
   The last bound is Z.max grpc_cap (len pending), not grpc_cap: the 32 KiB cap is applied only when a fresh record
   is taken; the branch that serves the left-over of the last record copies min(len buf, len pending) bytes, and a
   left-over can be longer than the cap (NoiseStream.grpc_read_cap_false) *)
Theorem c15_grpc_read_conserves : forall pending src b out pending' src', 0 <= b ->
  grpc_read pending src b = (out, pending', src') ->
  out ++ pending' ++ concat src' = pending ++ concat src /\ len out <= b
  /\ (pending = [] \/ len pending <= grpc_cap -> len out <= grpc_cap)
  /\ len out <= Z.max grpc_cap (len pending).
Proof. exact grpc_read_step. Qed.
Print Assumptions c15_grpc_read_conserves.

Theorem c15_buf_read_conserves : forall pending src b out pending' src', 0 <= b ->
  buf_read pending src b = (out, pending', src') ->
  out ++ pending' ++ concat src' = pending ++ concat src /\ len out <= b.
Proof. exact buf_read_step. Qed.
Print Assumptions c15_buf_read_conserves.

(* one-step progress: with a buffer of at least one byte a Read returns at least one byte whenever data is
   available *)
Theorem c15_buf_read_progress : forall pending src b out pending' src', 1 <= b ->
  (pending <> [] \/ exists m, In m src /\ m <> []) ->
  buf_read pending src b = (out, pending', src') -> out <> [].
Proof. exact buf_read_progress. Qed.
Print Assumptions c15_buf_read_progress.

(* a write larger than one record is chunked transparently (TCP) or rejected (gRPC), never truncated *)
Theorem c15_tcp_write_chunks : forall b,
  concat (tcp_write_records b) = b
  /\ Forall (fun c => len c <= max_record) (tcp_write_records b)
  /\ (b <> [] -> Forall (fun c => c <> []) (tcp_write_records b)).
Proof. exact tcp_write_records_spec. Qed.
Print Assumptions c15_tcp_write_chunks.

Theorem c15_grpc_write_rejects : forall b, grpc_write_records b = None <-> max_record < len b.
Proof. exact grpc_write_records_none. Qed.
Print Assumptions c15_grpc_write_rejects.

Example c15_ex : reads grpc_read [] [[1; 2; 3]; []; [4]] [2; 5; 1; 1] = [[1; 2]; [3]; []; [4]]
              /\ reads buf_read [] [[1; 2; 3]; []; [4]] [2; 5; 1] = [[1; 2]; [3]; [4]].
Proof. vm_compute. split; reflexivity. Qed.

(* C20 — adaptive resend timeout stays within its bounds.
   Model/Timeout.v is gbn/timeout_manager.go with an explicit clock; the float32
   arithmetic of the boost is Flocq's binary32 (fboost32). The real
   TimeoutManager is run against this model op by op under virtual time. *)
From Coq Require Import ZArith List Lia.
From LNC Require Import Timeout TimeoutProofs.
Import ListNotations.
Open Scope Z_scope.

(* all histories of Sent / Received / clock ticks, all multipliers, frequencies, percentages num/den *)
Theorem c20_floor : forall num den mult freq hs ops, 0 <= num -> 0 < den -> 0 < mult -> 0 < freq ->
  second <= get_resend (fboost32 num den) (tm_run (tm_init false second mult freq hs) ops).
Proof.
  intros num den mult freq hs ops Hn Hd. apply floor.
  intros orig count. apply fboost32_nonneg; lia.
Qed.
Print Assumptions c20_floor.

Theorem c20_static : forall num den resend mult freq hs ops,
  get_resend (fboost32 num den) (tm_run (tm_init true resend mult freq hs) ops) = resend
  /\ get_handshake (fboost32 num den) (tm_run (tm_init true resend mult freq hs) ops) = hs.
Proof. intros num den. apply static, fboost32_zero. Qed.
Print Assumptions c20_static.

(* a recomputation returns the timeout to max(1 s, multiplier * rtt) with zero boost *)
Theorem c20_reset_on_sample : forall num den m o ts tr fr, t_static m = false ->
  g_samples (tm_step m o) = g_samples m ++ [(ts, tr, fr)] ->
  get_resend (fboost32 num den) (tm_step m o)
    = (let mul := wrap64 (t_mult m * (tr - ts)) in if mul <? second then second else mul)
  /\ tr = t_now m.
Proof. intros num den m o ts tr fr _. apply reset_on_sample, fboost32_zero. Qed.
Print Assumptions c20_reset_on_sample.

(* every recomputation uses a sample of a packet whose last Sent was not a retransmission *)
Theorem c20_samples_not_retransmitted : forall static resend mult freq hs ops,
  Forall (fun s => snd s = true) (g_samples (tm_run (tm_init static resend mult freq hs) ops)).
Proof. exact samples_fresh. Qed.
Print Assumptions c20_samples_not_retransmitted.

(* the timeout changes only on a recomputation or on a retransmission of DATA *)
Theorem c20_changes_only_on_sample_or_resend : forall num den m o,
  g_samples (tm_step m o) = g_samples m -> (forall seq, o <> TSent KData seq true) ->
  get_resend (fboost32 num den) (tm_step m o) = get_resend (fboost32 num den) m.
Proof. intros num den. apply resend_stable. Qed.
Print Assumptions c20_changes_only_on_sample_or_resend.

(* effective boosts since the last recomputation are at least one base timeout apart,
   each adds exactly one step *)
Theorem c20_boost_rate : forall mult freq hs ops, 0 < mult -> 0 < freq -> Forall tick_ok ops ->
  let m := tm_run (tm_init false second mult freq hs) ops in
  spaced (b_orig (t_rb m)) (g_boosts m) /\ b_count (t_rb m) = Z.of_nat (length (g_boosts m)).
Proof. intros mult freq hs ops _ _ _. apply boost_rate_gen. Qed.
Print Assumptions c20_boost_rate.

Theorem c20_value : forall num den mult freq hs ops,
  let m := tm_run (tm_init false second mult freq hs) ops in
  get_resend (fboost32 num den) m
  = b_orig (t_rb m) + fboost32 num den (b_orig (t_rb m)) (Z.of_nat (length (g_boosts m))).
Proof. intros num den. apply resend_value. Qed.
Print Assumptions c20_value.

(* non-vacuity: a history with a sample, two spaced retransmissions and a premature one *)
Example c20_ex :
  let ops := [TSent KData 0 false; TTick 300000000; TReceived KAck 0;
              TSent KData 1 false; TTick 2000000000; TSent KData 1 true; TTick 100000000; TSent KData 1 true;
              TTick 1500000000; TSent KData 1 true] in
  let m := tm_run (tm_init false second 5 1 second) ops in
  get_resend (fboost32 1 2) m = 3000000000 /\ g_samples m = [(0, 300000000, true)] /\ length (g_boosts m) = 2%nat.
Proof. vm_compute. repeat split; reflexivity. Qed.

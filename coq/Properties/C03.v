(* C03 — only holders of the pairing secret or paired keys can complete a handshake.
   Symbolic model Model/Sym.v of noise.go (free term algebra: hash, HKDF, scrypt injective;
   ECDH symmetric and otherwise free; the AEAD opens exactly the term that was sealed with the
   same key, nonce and associated data). Every act of every scenario of the harness is
   re-computed to bytes from these terms and compared with the real wire. *)
From Coq Require Import ZArith List Bool Lia.
From LNC Require Import Sym SymLemmas SymProofs SymHonest.
Import ListNotations.
Open Scope Z_scope.

(* first pairing: any two different pass phrases (differing in any bit), any keys, versions, payload *)
Theorem c03_xx_wrong_passphrase : forall c, c_kk c = false -> c_pwi c <> c_pwr c ->
  completed (r_resp (run c faithful)) = false /\ completed (r_init (run c faithful)) = false /\
  r_resp_out (run c faithful) = [].
Proof. exact xx_wrong_passphrase. Qed.
Print Assumptions c03_xx_wrong_passphrase.

(* repeat handshake: either side storing a key that is not the other's static key *)
Theorem c03_kk_key_mismatch : forall c a b, c_kk c = true -> wf c ->
  c_exp_i c = Pub (Priv a) -> c_exp_r c = Pub (Priv b) ->
  (a <> c_sr c \/ b <> c_si c) ->
  completed (r_resp (run c faithful)) = false /\ completed (r_init (run c faithful)) = false /\
  r_resp_out (run c faithful) = [].
Proof.
  intros c a b K _ Xi Xr NE. apply kk_key_mismatch; [exact K|].
  rewrite Xi, Xr. destruct NE; [left | right]; congruence.
Qed.
Print Assumptions c03_kk_key_mismatch.

(* whatever is delivered as act 1 (any adversary): a responder that rejects it has emitted
   nothing, so its auth payload was never released *)
Theorem c03_responder_silent : forall c adv,
  (exists o, r_resp (run c adv) = o /\ (o = Failed 1 \/ o = BadConfig)) ->
  r_resp_out (run c adv) = [] /\ (length (r_wire (run c adv)) <= 1)%nat.
Proof. exact responder_silent. Qed.
Print Assumptions c03_responder_silent.

(* with the same secret / the right keys and compatible version ranges the handshake completes *)
Theorem c03_match_completes : forall c, wf c -> vr c ->
  (c_kk c = false -> c_pwi c = c_pwr c) ->
  (c_kk c = true -> c_exp_i c = Pub (Priv (c_sr c)) /\ c_exp_r c = Pub (Priv (c_si c))) ->
  let mi := (if c_kk c then Z.max 2 (c_mini c) else c_mini c) in
  let mr := (if c_kk c then Z.max 2 (c_minr c) else c_minr c) in
  mi <= c_maxi c -> mr <= c_maxr c -> mr <= mi <= c_maxr c -> mi <= c_maxr c <= c_maxi c ->
  (c_maxr c = 0 -> c_plen c <= 498) ->
  exists si sr, r_init (run c faithful) = Completed si /\ r_resp (run c faithful) = Completed sr /\
    s_send si = s_recv sr /\ s_recv si = s_send sr /\ s_version si = c_maxr c /\ s_version sr = c_maxr c /\
    s_remote si = Some (Pub (Priv (c_sr c))) /\ s_remote sr = Some (Pub (Priv (c_si c))) /\
    s_auth si = Some (c_payload c).
Proof.
  intros c _ V M1 M2 mi mr P1 P2 P3 P4 P5.
  pose proof (honest_outcome c V (conj M1 M2)) as H.
  rewrite (proj2 (okb_spec c)) in H by (subst mi mr; lia). exact H.
Qed.
Print Assumptions c03_match_completes.

Example c03_ex :
  completed (r_resp (run (mk_cfg false 1 2 3 4 (Stretch (Lit [7])) (Stretch (Lit [8])) Empty Empty (Lit [1]) 1 0 2 0 2) faithful)) = false
  /\ completed (r_resp (run (example_cfg false 0 2 0 2) faithful)) = true.
Proof. vm_compute. split; reflexivity. Qed.

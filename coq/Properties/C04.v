(* C04 — completed handshakes agree on keys, version, identities and auth payload.
   Adversary: a man in the middle who rewrites each act into ANY list of fields (any version
   bytes, any points, any reordering / replay / reflection) but cannot make a new ciphertext
   that opens: every Seal term it delivers was transmitted by an honest party in this run
   (no_forgery_run). For the XX act-1 MAC, which is under the public all-zero key with the
   unmasked ephemeral in its associated data, "cannot forge" stands for "cannot unmask without
   the pass phrase". *)
From Coq Require Import ZArith List Bool Lia.
From LNC Require Import Sym SymLemmas SymProofs SymHonest SymTamper.
Import ListNotations.
Open Scope Z_scope.

(* all 81 version quadruples, both patterns, any payload: honest delivery gives agreement or
   no completion by the initiator (and for XX by neither) *)
Theorem c04_honest_agreement : forall c, wf c -> vr c ->
  (c_kk c = false -> c_pwi c = c_pwr c) ->
  (c_kk c = true -> c_exp_i c = Pub (Priv (c_sr c)) /\ c_exp_r c = Pub (Priv (c_si c))) ->
  (completed (r_init (run c faithful)) = true /\ completed (r_resp (run c faithful)) = true /\
   exists si sr, r_init (run c faithful) = Completed si /\ r_resp (run c faithful) = Completed sr /\
     s_send si = s_recv sr /\ s_recv si = s_send sr /\ s_version si = c_maxr c /\ s_version sr = c_maxr c /\
     s_remote si = Some (Pub (Priv (c_sr c))) /\ s_remote sr = Some (Pub (Priv (c_si c))) /\
     s_auth si = Some (c_payload c)) \/
  (completed (r_init (run c faithful)) = false /\
   (c_kk c = false -> completed (r_resp (run c faithful)) = false)).
Proof.
  intros c _ V M1 M2.
  pose proof (honest_outcome c V (conj M1 M2)) as H.
  destruct (okb c); [left | right; exact H].
  destruct H as (si & sr & Hi & Hr & A). rewrite Hi, Hr. split; [reflexivity|]. split; [reflexivity|].
  exists si, sr. split; [reflexivity|]. split; [reflexivity | exact A].
Qed.
Print Assumptions c04_honest_agreement.

(* under ANY no-forgery man in the middle: two parties that both complete hold complementary
   traffic keys, each other's true static key, and the initiator holds exactly the responder's
   auth payload *)
Theorem c04_tamper_agreement : forall c adv si sr, no_forgery_run c adv ->
  r_init (run c adv) = Completed si -> r_resp (run c adv) = Completed sr ->
  s_send si = s_recv sr /\ s_recv si = s_send sr /\
  s_remote si = Some (Pub (Priv (c_sr c))) /\ s_remote sr = Some (Pub (Priv (c_si c))) /\
  s_auth si = Some (c_payload c).
Proof. exact tamper_agreement_run. Qed.
Print Assumptions c04_tamper_agreement.

(* the negotiated version is NOT protected: agreement on the version is refuted (known finding
   C04/version-byte-unauthenticated): act 2's byte 2 -> 1 and act 3's 1 -> 2 leave the
   initiator at version 1 and the responder at version 2, and only the responder stores the
   peer's key (so only it moves to the key-derived rendezvous) *)
Theorem c04_version_agreement_refuted : exists c adv si sr,
  no_forgery_run c adv /\ r_init (run c adv) = Completed si /\ r_resp (run c adv) = Completed sr /\
  s_version si <> s_version sr /\ s_set_remote si <> s_set_remote sr.
Proof. exact tamper_version_refuted_run. Qed.
Print Assumptions c04_version_agreement_refuted.

(* ... and holds when the version bytes are left alone *)
Theorem c04_version_agreement_if_bytes_kept : forall c adv si sr, keeps_version adv ->
  r_init (run c adv) = Completed si -> r_resp (run c adv) = Completed sr -> s_version si = s_version sr.
Proof. exact version_agreement_if_bytes_kept. Qed.
Print Assumptions c04_version_agreement_if_bytes_kept.

(* a version-0 responder with an auth payload that does not fit act two fails instead of truncating *)
Theorem c04_v0_large_payload_rejected : forall c adv,
  c_kk c = false -> c_maxr c = 0 -> 498 < c_plen c ->
  completed (r_resp (run c adv)) = false /\ completed (r_init (run c adv)) = false.
Proof. exact v0_large_payload_rejected. Qed.
Print Assumptions c04_v0_large_payload_rejected.

Example c04_ex :
  match r_init (run (example_cfg false 0 2 0 2) version_swap), r_resp (run (example_cfg false 0 2 0 2) version_swap) with
  | Completed a, Completed b => s_version a = 1 /\ s_version b = 2 /\ s_send a = s_recv b
  | _, _ => False
  end.
Proof. vm_compute. repeat split; reflexivity. Qed.

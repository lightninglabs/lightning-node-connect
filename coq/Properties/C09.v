(* C09 — the sender never exceeds its window; the sequence space is strictly
   larger than the window and the bookkeeping stays inside it. *)
From Coq Require Import String List.
From LNC Require Import GoLite MessagesGen QueueGen Gbn Window GbnInv GbnSafety.
From LNC Require TablesGen Tables Wakeup WakeupProofs.
From LNC Require Import SyncerGen SyncerProofs.
Open Scope Z_scope.

(* every reachable state of the protocol model, all n in 1..254 *)
Theorem c09_window_bound : forall n evs st,
  1 <= n <= 254 -> drun (dinit n) evs = DOk st ->
  0 <= d_T st - d_B st <= n /\ queue_size (d_q st) = Ok (d_T st - d_B st) /\
  0 <= queue_sequenceBase (d_q st) < n + 1 /\ 0 <= queue_sequenceTop (d_q st) < n + 1 /\
  queueCfg_s (queue_cfg (d_q st)) = n + 1 /\ d_n st = n.
Proof.
  intros n evs st Hn Hrun. destruct (drun_dinit n evs st Hn Hrun) as [Hinv <-].
  pose proof (Inv_window st Hinv). tauto.
Qed.
Print Assumptions c09_window_bound.

(* a new packet is refused exactly when the window is full *)
Theorem c09_full_window_refuses : forall st p,
  Inv st -> d_T st - d_B st = d_n st -> dstep st (DNew p) = DReject.
Proof.
  intros st p HI Hfull. unfold dstep.
  rewrite (size_ghost _ _ _ _ (i_sender st HI)). cbn [lift].
  destruct (d_T st - d_B st <? d_n st) eqn:E; [lia|]. reflexivity.
Qed.
Print Assumptions c09_full_window_refuses.

(* the window algebra for ALL uint8 values (any sequence space 2..255, any base/top
   inside it, any incoming ACK / NACK value 0..255): bookkeeping stays in the
   sequence space and the number of outstanding packets never grows *)
Theorem c09_ack_all_values : forall q s base top sq,
  2 <= s <= 255 -> 0 <= base < s -> 0 <= top < s -> 0 <= sq < 256 ->
  queueCfg_s (queue_cfg q) = s -> queue_sequenceBase q = base -> queue_sequenceTop q = top ->
  exists q' r, queue_processACK q sq = Ok (q', r) /\
    0 <= queue_sequenceBase q' < s /\ queue_sequenceTop q' = top /\
    queueCfg_s (queue_cfg q') = s /\ queue_content q' = queue_content q /\
    wsize s (queue_sequenceBase q') top <= wsize s base top /\ (r = false -> q' = q).
Proof. exact processACK_in_range. Qed.
Print Assumptions c09_ack_all_values.

Theorem c09_nack_all_values : forall q s base top sq,
  2 <= s <= 255 -> 0 <= base < s -> 0 <= top < s -> 0 <= sq < 256 ->
  queueCfg_s (queue_cfg q) = s -> queue_sequenceBase q = base -> queue_sequenceTop q = top ->
  exists q' r1 r2, queue_processNACK q sq = Ok (q', r1, r2) /\
    0 <= queue_sequenceBase q' < s /\ queue_sequenceTop q' = top /\
    queueCfg_s (queue_cfg q') = s /\ queue_content q' = queue_content q /\
    wsize s (queue_sequenceBase q') top <= wsize s base top.
Proof. exact processNACK_in_range. Qed.
Print Assumptions c09_nack_all_values.

Theorem c09_size_all_values : forall q s base top,
  2 <= s <= 255 -> 0 <= base < s -> 0 <= top < s ->
  queueCfg_s (queue_cfg q) = s -> queue_sequenceBase q = base -> queue_sequenceTop q = top ->
  queue_size q = Ok (wsize s base top) /\ 0 <= wsize s base top <= s - 1.
Proof. exact size_in_range. Qed.
Print Assumptions c09_size_all_values.

(* "blocks ... until an acknowledgement frees a slot": the freed slot is announced to the send loop by a
   non-blocking send. Model/Wakeup.v: the send loop tests the window, then waits; the receive loop frees the
   window, then signals; all interleavings. With a buffered signal channel the send loop is never left waiting
   on a window that has room ... *)
Theorem c09_buffered_signal_never_loses_a_wakeup : forall cap acks sched,
  (cap >= 1)%nat -> let st := Wakeup.wrun cap (Wakeup.winit acks) sched in
  Wakeup.w_free st = true -> Wakeup.stuck st = false.
Proof. exact WakeupProofs.buffered_signal_never_stuck. Qed.
Print Assumptions c09_buffered_signal_never_loses_a_wakeup.

Theorem c09_send_loop_takes_new_data_after_the_signal : forall cap acks sched,
  (cap >= 1)%nat -> let st := Wakeup.wrun cap (Wakeup.winit acks) sched in
  Wakeup.w_free st = true -> Wakeup.w_rsig st = false ->
  Wakeup.w_spc (Wakeup.wrun cap st (true :: true :: true :: nil)) = Wakeup.SProceed.
Proof. exact WakeupProofs.buffered_signal_proceeds. Qed.
Print Assumptions c09_send_loop_takes_new_data_after_the_signal.

(* ... with an unbuffered one it is: test (full) / free + signal (dropped) / wait *)
Theorem c09_unbuffered_signal_refuted :
  let st := Wakeup.wrun 0 (Wakeup.winit 1) (true :: false :: false :: true :: nil) in
  Wakeup.w_free st = true /\ Wakeup.stuck st = true.
Proof. exact WakeupProofs.unbuffered_signal_refuted. Qed.
Print Assumptions c09_unbuffered_signal_refuted.

(* ... and in the current source (gen/TablesGen.v, regenerated on every run) every channel that the send loop
   waits on and that is signalled with a non-blocking send is created with a buffer; the ACK signal is one of them *)
Theorem c09_wakeup_channels_are_buffered :
  Tables.unbuffered_wakeups = nil /\
  existsb (fun r => String.eqb (snd (fst r)) "receivedACKSignal") Tables.window_wakeups = true.
Proof. vm_compute. split; reflexivity. Qed.
Print Assumptions c09_wakeup_channels_are_buffered.

(* After a timer-driven resend round the send loop holds back new data until the round is answered
   (syncer.waitForSync): it waits for the ACK of the LAST packet of the window, the predecessor of `top` in the
   sequence space, or for NACK(top). gen/SyncerGen.v is gbn/syncer.go's initResendUpTo as the source has it now.
   For every uint8 sequence space and every top inside it the call cannot panic, the expected NACK is top and the
   expected ACK lies inside the sequence space ... *)
Theorem c09_sync_wait_expectations_in_range : forall c top,
  1 <= syncer_s c <= 255 -> 0 <= top < syncer_s c ->
  exists c', syncer_initResendUpTo c top = Ok c' /\
    syncer_s c' = syncer_s c /\ syncer_state c' = 1 /\ syncer_expectedNACK c' = top /\
    0 <= syncer_expectedACK c' < syncer_s c /\
    syncer_expectedACK c' = ((syncer_s c + top - 1) mod 256) mod syncer_s c.
Proof. exact initResendUpTo_in_range. Qed.
Print Assumptions c09_sync_wait_expectations_in_range.

(* ... it IS the predecessor of top (so the ACK that ends the hold-back is the one that frees the whole window)
   whenever s + top - 1 fits a uint8, in particular for every window of at most 127 packets ... *)
Theorem c09_sync_wait_expects_last_packet : forall c top c',
  1 <= syncer_s c <= 255 -> 0 <= top < syncer_s c -> syncer_s c + top <= 256 ->
  syncer_initResendUpTo c top = Ok c' ->
  (syncer_expectedACK c' + 1) mod syncer_s c = top.
Proof. exact initResendUpTo_predecessor. Qed.
Print Assumptions c09_sync_wait_expects_last_packet.

(* ... and is NOT for larger windows: the uint8 sum wraps (s = 200, top = 100 gives 43, not 99). The hold-back
   then ends only by NACK(top) or its own timer (3 x the resend timeout, gbn/syncer.go awaitingTimeoutMultiplier):
   slower, and part of known finding K5 (Send held back while the window has room), not a second finding: no packet
   is lost or reordered by it (C01 is about the queue). *)
Theorem c09_sync_wait_expects_last_packet_refuted_for_large_windows : exists c top c',
  1 <= syncer_s c <= 255 /\ 0 <= top < syncer_s c /\
  syncer_initResendUpTo c top = Ok c' /\ (syncer_expectedACK c' + 1) mod syncer_s c <> top.
Proof. exact initResendUpTo_predecessor_refuted. Qed.
Print Assumptions c09_sync_wait_expects_last_packet_refuted_for_large_windows.

Example c09_sync_ex : syncer_initResendUpTo (mk_syncer 4 0 0 0) 0 = Ok (mk_syncer 4 1 3 0)
                   /\ syncer_initResendUpTo (mk_syncer 255 0 0 0) 1 = Ok (mk_syncer 255 1 0 1).
Proof. split; reflexivity. Qed.

Example c09_ex : queue_processACK (mk_queue (mk_queueCfg 4) [None; None; None; None] 3 1) 0
               = Ok (mk_queue (mk_queueCfg 4) [None; None; None; None] 1 1, true)
              /\ queue_processNACK (mk_queue (mk_queueCfg 4) [None; None; None; None] 3 1) 200
               = Ok (mk_queue (mk_queueCfg 4) [None; None; None; None] 3 1, false, false).
Proof. split; reflexivity. Qed.

(* C08 — fresh nonces, lock-step key rotation, no plaintext on the wire. *)
From Coq Require Import ZArith List Lia.
From LNC Require Import Noise NoiseRecord.
Import ListNotations.
Open Scope Z_scope.

(* the m-th AEAD operation of a direction uses key #(m / 1000) and nonce m mod 1000, for every m *)
Theorem c08_schedule : forall m : nat, kn_iter m (0, 0) = kn_of (Z.of_nat m).
Proof. exact kn_iter_spec. Qed.
Print Assumptions c08_schedule.

(* no (key, nonce) pair is ever used twice in a direction *)
Theorem c08_fresh : forall a b : nat, kn_iter a (0, 0) = kn_iter b (0, 0) -> a = b.
Proof. exact kn_iter_inj. Qed.
Print Assumptions c08_fresh.

(* every byte on the wire is ciphertext of some operation, and no (operation, offset) repeats *)
Theorem c08_wire_is_sealed : forall dir recs,
  Forall (fun b => exists op off, b = Honest dir op off) (writer_stream dir recs).
Proof. exact writer_all_sealed. Qed.
Print Assumptions c08_wire_is_sealed.

Theorem c08_no_reuse : forall dir recs, NoDup (writer_stream dir recs).
Proof. exact writer_nodup. Qed.
Print Assumptions c08_no_reuse.

Theorem c08_equal_plaintexts_differ : forall dir k k' p,
  0 <= k -> 0 <= k' -> k <> k' -> record_tags dir k p <> record_tags dir k' p.
Proof. intros dir k k' p _ _ Hne H. exact (Hne (record_tags_inj _ _ _ _ _ H)). Qed.
Print Assumptions c08_equal_plaintexts_differ.

(* streams of ANY length decrypt to exactly what was written: reader and writer use the
   same operation index (hence the same key and nonce) for every record, across rotations *)
Theorem c08_roundtrip : forall dir recs, wf recs ->
  read_all (S (length recs)) dir recs (mk_reader 0 false) (writer_stream dir recs)
  = map ROk recs ++ [RErrShort].
Proof. exact roundtrip. Qed.
Print Assumptions c08_roundtrip.

Example c08_ex : kn_iter 999 (0, 0) = (0, 999) /\ kn_iter 1000 (0, 0) = (1, 0) /\ kn_iter 2001 (0, 0) = (2, 1).
Proof. vm_compute. repeat split; reflexivity. Qed.

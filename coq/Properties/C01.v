(* C01 — GBN delivers every message exactly once, in order and intact.
   Statements and non-vacuity examples. The sender's window functions are the go2coq translation
   of gbn/queue.go from this run; the system model is Model/Gbn.v; real
   histories are replayed through Model/GbnMonitor.v by the check. *)
From LNC Require Import GoLite MessagesGen QueueGen Codec Gbn GbnMonitor GbnInv GbnSafety MonitorSafety.
Open Scope Z_scope.

(* For every window size and EVERY event sequence (all channel drop / in-order
   duplicate / delay decisions, all retransmission choices, all NACK
   suppressions, all interleavings of the two ends): what the receiver has
   accepted is exactly a prefix of what the sender queued. *)
Theorem c01_delivered_prefix : forall n evs st,
  1 <= n <= 254 -> drun (dinit n) evs = DOk st ->
  d_delivered st = firstn (length (d_delivered st)) (d_sent st).
Proof. intros n evs st Hn Hrun. exact (Inv_prefix st (proj1 (drun_dinit n evs st Hn Hrun))). Qed.
Print Assumptions c01_delivered_prefix.

(* the generated window code never panics in any reachable state *)
Theorem c01_never_panics : forall n evs, 1 <= n <= 254 -> drun (dinit n) evs <> DPanic.
Proof. intros n evs Hn. exact (good_no_panic _ _ (drun_dinit_good n evs Hn)). Qed.
Print Assumptions c01_never_panics.

(* Both directions at once, at the level of the API: in every history accepted by
   the two-direction monitor (Send / Recv calls, every packet handed to or taken
   from the transport, every channel decision), the messages returned by Recv on
   one side are a prefix of the messages passed to Send on the other side. *)
Theorem c01_messages : forall n cA cB evs st, 1 <= n <= 254 -> 0 <= cA -> 0 <= cB ->
  mrun_all (minit n cA cB) evs = Some st ->
  (a_send_failed (m_apiA st) = false -> is_prefix (a_returned (m_apiB st)) (a_accepted (m_apiA st))) /\
  (a_send_failed (m_apiB st) = false -> is_prefix (a_returned (m_apiA st)) (a_accepted (m_apiB st))).
Proof. exact mrun_messages. Qed.
Print Assumptions c01_messages.

(* the per-direction invariant holds in every state of every accepted history *)
Theorem c01_monitor_invariant : forall n cA cB evs st, 1 <= n <= 254 ->
  mrun_all (minit n cA cB) evs = Some st -> Inv (m_dA st) /\ Inv (m_dB st).
Proof. exact mrun_inv. Qed.
Print Assumptions c01_monitor_invariant.

(* non-vacuity: a 27-event run with a drop, a duplicate, a NACK, retransmissions
   and a wrap of the sequence space (n = 2, s = 3) is accepted and delivers 5 packets *)
Example c01_run_exists :
  match drun (dinit 2) example_run with
  | DOk st => d_R st = 5 /\ map PacketData_Payload (d_delivered st) = [[10]; [11]; [12]; [13]; [14]]
  | _ => False
  end.
Proof. vm_compute. split; reflexivity. Qed.

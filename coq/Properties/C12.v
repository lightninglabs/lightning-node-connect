(* C12 — Close is idempotent, bounded, wakes blocked callers and leaks nothing.
   What is logic here is structural and taken from the current source text:
   gen/TablesGen.v lists every `select` of gbn/*.go with the channel of each case.
   Close closes g.quit, cancels g.ctx, stops the queue (closing the syncer's quit) and
   stops the tickers (closing their quit). Every BLOCKING select must have a case on one
   of those, otherwise a goroutine or a caller can stay blocked after Close.
   That the goroutines then actually terminate within the bound (scheduling, the transport
   honouring context cancellation) is sampled on virtual-time histories: PARTIAL. *)
From Coq Require Import String List Bool Arith.
From LNC Require Import TablesGen Tables.
From LNC Require MailboxTables.
From LNC Require Reconnect ReconnectProofs.
Import ListNotations.

Theorem c12_every_blocking_select_is_woken_by_close : uncovered_selects = [].
Proof. vm_compute. reflexivity. Qed.
Print Assumptions c12_every_blocking_select_is_woken_by_close.

(* ... and no goroutine or caller blocks on a channel operation outside a select (which Close could not
   wake), except the listed ones that cannot block forever. *)
Theorem c12_no_unwakeable_channel_operation : unexpected_bare_ops = [] /\ force_tick_callers = [].
Proof. vm_compute. split; reflexivity. Qed.
Print Assumptions c12_no_unwakeable_channel_operation.

Example c12_bare_detector_detects :
  existsb (bare_eqb ("GoBackNConn.receivePacketsForever", "g.recvDataChan<-")) allowed_bare_ops = false /\
  Nat.leb 1 (List.length bare_chanop_table) = true.
Proof. vm_compute. split; reflexivity. Qed.

(* the same two checks over mailbox/*.go (ClientConn / ServerConn with their retry loops, Client / Server, Listener):
   every blocking select has a case on a channel its shutdown closes, and the only channel operations outside a
   select are the listed ones (Dial waiting for the previous connection's Done(), the listener's semaphore) *)
Theorem c12_mailbox_blocking_operations_are_woken :
  MailboxTables.uncovered_selects = [] /\ MailboxTables.unexpected_bare_ops = [].
Proof. vm_compute. split; reflexivity. Qed.
Print Assumptions c12_mailbox_blocking_operations_are_woken.

Example c12_mailbox_table_nontrivial :
  Nat.leb 10 (List.length MailboxTablesGen.select_table) = true /\
  existsb (fun r => String.eqb (fst (fst r)) "Server.Accept" && negb (snd (fst r))) MailboxTablesGen.select_table = true.
Proof. vm_compute. split; reflexivity. Qed.

(* the statement is not vacuous: the table is non-trivial and contains blocking selects *)
Example c12_table_nontrivial :
  Nat.leb 20 (List.length select_table) = true /\
  existsb (fun r => negb (snd (fst r))) select_table = true /\
  existsb (fun r => String.eqb (fst (fst r)) "GoBackNConn.sendPacketsForever") select_table = true.
Proof. vm_compute. repeat split; reflexivity. Qed.

(* and the check is able to fail: a select on data channels only is reported *)
Example c12_detector_detects :
  covered ("f", false, ["g.receivedACKSignal"; "g.resendSignal"]) = false /\
  covered ("f", false, ["g.receivedACKSignal"; "g.quit"]) = true /\ covered ("f", true, []) = true.
Proof. vm_compute. repeat split; reflexivity. Qed.

(* "Close may be called any number of times ... at any moment": over the consecutive connections of one session
   (Model/Reconnect.v: every handshake hands out a handle, handles are closed in any order, any number of times,
   also after later connections exist). A second Close of a handle changes nothing, a Close closes the connection it
   was called on, and every connection stays open until its own handle is closed *)
Theorem c12_close_twice_is_close_once : forall st k,
  Reconnect.cstep false (Reconnect.cstep false st (Reconnect.CClose k)) (Reconnect.CClose k)
  = Reconnect.cstep false st (Reconnect.CClose k).
Proof. exact ReconnectProofs.close_twice_is_close_once. Qed.
Print Assumptions c12_close_twice_is_close_once.

Theorem c12_close_closes_its_own_connection : forall st k,
  k < length st -> nth k (Reconnect.cstep false st (Reconnect.CClose k)) false = false.
Proof. intros st k _. apply ReconnectProofs.close_closes_its_own. Qed.
Print Assumptions c12_close_closes_its_own_connection.

Theorem c12_connection_open_until_its_own_close : forall evs j,
  j < Reconnect.handshakes evs -> ~ In (Reconnect.CClose j) evs ->
  nth j (Reconnect.crun false [] evs) false = true.
Proof. exact ReconnectProofs.connection_open_until_its_own_close. Qed.
Print Assumptions c12_connection_open_until_its_own_close.

(* with the session's one shared object as every handle (the code before fix 1556a75) a second Close of
   connection 0 closes connection 1 *)
Theorem c12_shared_handle_close_refuted :
  ~ In (Reconnect.CClose 1) [Reconnect.CHandshake; Reconnect.CClose 0; Reconnect.CHandshake; Reconnect.CClose 0] /\
  nth 1 (Reconnect.crun true [] [Reconnect.CHandshake; Reconnect.CClose 0; Reconnect.CHandshake; Reconnect.CClose 0]) false = false /\
  nth 1 (Reconnect.crun false [] [Reconnect.CHandshake; Reconnect.CClose 0; Reconnect.CHandshake; Reconnect.CClose 0]) false = true.
Proof. exact ReconnectProofs.shared_close_refuted. Qed.
Print Assumptions c12_shared_handle_close_refuted.

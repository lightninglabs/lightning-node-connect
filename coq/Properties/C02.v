(* C02 — the encrypted stream yields only a prefix of what the peer wrote, else an error.
   Model/Noise.v: WriteMessage / ReadHeader / ReadBody over an ideal AEAD whose
   ciphertext bytes are tagged with the operation that produced them; the
   adversary supplies the reader's whole input as an arbitrary list of such bytes
   (any edit script over the stream, junk, replays, the other direction's bytes). *)
From Coq Require Import ZArith List Lia.
From LNC Require Import Noise NoiseRecord.
Import ListNotations.
Open Scope Z_scope.

(* for EVERY input the adversary can assemble, at every point of the reading *)
Theorem c02_prefix_always : forall dir recs input fuel, wf recs ->
  is_prefix (oks (read_all fuel dir recs (mk_reader 0 false) input)) recs.
Proof. intros dir recs input fuel _. apply prefix_always. Qed.
Print Assumptions c02_prefix_always.

(* the same when the transport also fails transiently at arbitrary points (the input arrives in segments,
   each ending in a transport error such as a read deadline) and the application retries its Read *)
Theorem c02_prefix_with_transient_transport_errors : forall dir recs seg segs fuel, wf recs ->
  is_prefix (oks (read_segs fuel dir recs (mk_reader 0 false) seg segs)) recs.
Proof. intros dir recs seg segs fuel _. apply prefix_always_transient. Qed.
Print Assumptions c02_prefix_with_transient_transport_errors.

(* what carries it is that an error inside a record (header or body partly consumed) is final for the reader
   (r_failed): a reader which stays usable after such an error takes the body of a 2-byte record for the next
   header and returns the next header's plaintext as data *)
Theorem c02_transient_error_without_latch_refuted :
  wf nolatch_recs /\
  oks (read_segs_nolatch 4 true nolatch_recs (mk_reader 0 false) [] nolatch_segs) = [[0; 5]] /\
  ~ is_prefix (oks (read_segs_nolatch 4 true nolatch_recs (mk_reader 0 false) [] nolatch_segs)) nolatch_recs.
Proof. exact transient_without_latch_refuted. Qed.
Print Assumptions c02_transient_error_without_latch_refuted.

(* once a read fails, nothing is ever returned as valid again *)
Theorem c02_no_data_after_error : forall dir recs fuel r input l1 e l2,
  read_all fuel dir recs r input = l1 ++ e :: l2 -> (forall p, e <> ROk p) -> oks l2 = [].
Proof. exact no_ok_after_error. Qed.
Print Assumptions c02_no_data_after_error.

(* the first deviation from the honest stream surfaces as an error: exactly the
   records before it are returned *)
Theorem c02_first_deviation_errors : forall dir recs k tail fuel, wf recs -> (k <= length recs)%nat ->
  (forall p, nth_error recs k = Some p -> ~ is_prefix (record_tags dir (Z.of_nat k) p) tail) ->
  oks (read_all fuel dir recs (mk_reader 0 false) (writer_stream dir (firstn k recs) ++ tail))
  = firstn (Nat.min k fuel) recs.
Proof. exact first_deviation_errors. Qed.
Print Assumptions c02_first_deviation_errors.

(* reflected traffic of the other direction (and junk) is never accepted *)
Theorem c02_cross_direction : forall dir recs input fuel,
  Forall (fun b => match b with Honest d _ _ => d = negb dir | Junk => True end) input ->
  oks (read_all fuel dir recs (mk_reader 0 false) input) = [].
Proof. exact cross_direction. Qed.
Print Assumptions c02_cross_direction.

Example c02_ex : read_all 4 true [[1; 2]; [3]] (mk_reader 0 false)
                   (writer_stream true [[1; 2]] ++ [Junk] ++ writer_stream_from true 1 [[3]])
               = [ROk [1; 2]; RErrMac; RErrMac; RErrMac].
Proof. vm_compute. reflexivity. Qed.

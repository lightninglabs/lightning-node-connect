(* C10 — GBN handshake converges; both ends use the window the client proposed.
   Automata transcribed from gbn_client.go / gbn_server.go (Model/GbnHandshake.v),
   packet classification through the generated Deserialize. *)
From LNC Require Import GoLite MessagesGen Codec GbnHandshake HandshakeProofs.
Open Scope Z_scope.

(* all runs: any stale packets initially in either channel, any loss / in-order
   duplication / delay, any timer expiries, any start order *)
Theorem c10_server_window_valid_and_proposed : forall n sab sba evs st,
  hrun (hinit n sab sba) evs = Some st -> sv_phase (h_s st) = SDone ->
  valid_n (sv_n (h_s st)) = true /\ In (sv_n (h_s st)) (h_syns_ab st).
Proof. exact server_done_valid. Qed.
Print Assumptions c10_server_window_valid_and_proposed.

Theorem c10_agreement : forall n sab sba evs st,
  (forall m, In m (syns_of sab) -> m = n) ->
  hrun (hinit n sab sba) evs = Some st -> sv_phase (h_s st) = SDone -> sv_n (h_s st) = n.
Proof. exact agreement. Qed.
Print Assumptions c10_agreement.

Theorem c10_client_window : forall n sab sba evs st,
  hrun (hinit n sab sba) evs = Some st -> cl_phase (h_c st) = CDone ->
  cl_n (h_c st) = n /\ valid_n n = true.
Proof. exact client_done_valid. Qed.
Print Assumptions c10_client_window.

(* once the channels have drained, one more client timeout and a reliable exchange
   complete the handshake from every configuration in which both are still trying *)
Theorem c10_converge_fresh : forall st, valid_n (cl_n (h_c st)) = true ->
  cl_phase (h_c st) = CWaitSyn -> (sv_phase (h_s st) = SWaitSyn \/ sv_phase (h_s st) = SWaitSynAck) ->
  h_ab st = [] -> h_ba st = [] ->
  exists st', hrun st sched_fresh = Some st' /\ cl_phase (h_c st') = CDone /\ sv_phase (h_s st') = SDone /\
              sv_n (h_s st') = cl_n (h_c st) /\ h_ab st' = [] /\ h_ba st' = [].
Proof. exact converge_fresh. Qed.
Print Assumptions c10_converge_fresh.

(* a client that completed while the server did not (lost SYNACK): after the server's timeout, the
   client's next DATA packet (application data or keepalive ping) completes the server; before it, the
   server fails on DATA (gbn_server.go: `default: return io.EOF`) *)
Theorem c10_converge_lost_synack : forall st,
  cl_phase (h_c st) = CDone -> sv_phase (h_s st) = SWaitSynAck -> h_ab st = [] ->
  exists st', hrun st sched_data_after_timeout = Some st' /\ sv_phase (h_s st') = SDone /\ sv_n (h_s st') = sv_n (h_s st).
Proof. exact converge_data_waiting_synack. Qed.
Print Assumptions c10_converge_lost_synack.

Theorem c10_converge_after_restart : forall st,
  cl_phase (h_c st) = CDone -> sv_phase (h_s st) = SWaitSyn -> sv_resent (h_s st) = true ->
  h_ab st = [] -> exists st', hrun st sched_data = Some st' /\ sv_phase (h_s st') = SDone /\ sv_n (h_s st') = sv_n (h_s st).
Proof. exact converge_data_resent. Qed.
Print Assumptions c10_converge_after_restart.

(* the remaining configuration does NOT converge: unconditional convergence is refuted.
   A stale SYN toward the client completes the client alone (reachable state below);
   from there the server ignores every SYNACK and DATA, whatever the timers do.
   (known finding C10/stale-syn-completes-client-alone; with keepalive on the client's
   pong timeout makes the failure visible) *)
Theorem c10_unconditional_convergence_refuted :
  hrun (hinit 20 [] [HSyn 20]) [HStart; HAB HDrop; HBA HDeliver]
    = Some (mk_hsys (mk_client CDone 20) server_init [HSynAck] [] [20]) /\
  forall evs st,
    Forall (fun e => e = HClientData \/ e = HAB HDeliver \/ e = HAB HKeep \/ e = HAB HDrop \/ e = HServerTimeout \/ e = HClientTimeout) evs ->
    hrun (mk_hsys (mk_client CDone 20) server_init [HSynAck] [] [20]) evs = Some st ->
    sv_phase (h_s st) = SWaitSyn /\ sv_resent (h_s st) = false.
Proof. split; [exact stale_syn_stall_reachable | intros evs st _; apply stale_syn_stall]. Qed.
Print Assumptions c10_unconditional_convergence_refuted.

(* ... and so does a lost SYNACK when the client never transmits again (an application that only receives, no
   keepalive): reachable with nothing but the loss of that one packet; from there, whatever the timers do and with a
   perfect transport, the server never completes and both channels stay empty
   (known finding C10/lost-synack-with-a-silent-client; after the server's timeout any DATA or ping of the
   client completes the server: c10_converge_lost_synack above) *)
Theorem c10_lost_synack_silent_client_refuted :
  hrun (hinit 20 [] []) [HStart; HAB HDeliver; HBA HDeliver; HAB HDrop]
    = Some (mk_hsys (mk_client CDone 20) (mk_server SWaitSynAck 20 false) [] [] [20]) /\
  forall evs st,
    Forall (fun e => e <> HClientData) evs ->
    hrun (mk_hsys (mk_client CDone 20) (mk_server SWaitSynAck 20 false) [] [] [20]) evs = Some st ->
    cl_phase (h_c st) = CDone /\ h_ab st = [] /\ h_ba st = [] /\
    (sv_phase (h_s st) = SWaitSynAck \/ sv_phase (h_s st) = SWaitSyn).
Proof.
  split; [exact lost_synack_silent_reachable|].
  intros evs st HF H. eapply lost_synack_silent_stall; [exact HF| |exact H].
  repeat split; auto.
Qed.
Print Assumptions c10_lost_synack_silent_client_refuted.

Example c10_ex_clean : exists st, hrun (hinit 20 [] []) [HStart; HAB HDeliver; HBA HDeliver; HAB HDeliver] = Some st
  /\ cl_phase (h_c st) = CDone /\ sv_phase (h_s st) = SDone /\ sv_n (h_s st) = 20.
Proof. eexists. vm_compute. repeat split; reflexivity. Qed.

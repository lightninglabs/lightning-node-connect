(* C05 — end to end: bytes written on one side arrive intact through the relay.
   Model/Stack.v composes the layers through what their own theorems guarantee:
   GBN hands over a prefix of the messages given to it (C01/C14), the control-message framing
   is the identity on payloads (C19), connKit.Read and io.ReadFull present the concatenation of
   the delivered payloads (C15/C16), the record layer returns a prefix of the records for any
   input (C02/C08), NoiseGrpcConn.Read re-chunks without loss (C15). *)
From Coq Require Import ZArith List Bool Lia.
From LNC Require Import Noise NoiseRecord NoiseStream Stack StackProofs.
Import ListNotations.
Open Scope Z_scope.

(* all write-size sequences (records <= 65535 bytes), ANY number of GBN messages delivered so far
   (all relay fault schedules), any Read buffer sizes: bytes read are a prefix of bytes written
   and no Read exceeds its buffer *)
Theorem c05_stream_prefix : forall dir recs delivered fuel sizes,
  wf recs -> Forall (fun b => 0 <= b) sizes ->
  is_prefix (concat (stack_read dir recs delivered fuel sizes)) (concat recs)
  /\ Forall2 (fun out b => len out <= b) (stack_read dir recs delivered fuel sizes) sizes.
Proof. intros dir recs delivered fuel sizes _. apply read_stream_prefix. Qed.
Print Assumptions c05_stream_prefix.

(* once every message has been delivered, every record is read back *)
Theorem c05_complete_when_delivered : forall dir recs, wf recs ->
  oks (read_all (S (length recs)) dir recs (mk_reader 0 false)
         (concat (firstn (2 * length recs) (stack_messages dir recs)))) = recs.
Proof. exact stack_all_delivered. Qed.
Print Assumptions c05_complete_when_delivered.

(* every message payload the relay sees in the data phase consists of ciphertext bytes only *)
Theorem c05_relay_sees_only_ciphertext : forall dir recs,
  Forall (Forall (honest_tag dir)) (stack_messages dir recs).
Proof. exact relay_sees_only_ciphertext. Qed.
Print Assumptions c05_relay_sees_only_ciphertext.

Example c05_ex : stack_read true [[1; 2; 3]; [4]] 3 5 [2; 2; 2] = [[1; 2]; [3]; []]
              /\ stack_read true [[1; 2; 3]; [4]] 4 5 [2; 2; 2] = [[1; 2]; [3]; [4]].
Proof. vm_compute. split; reflexivity. Qed.

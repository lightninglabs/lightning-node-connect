(* C07 — no bytes delivered by the untrusted relay can crash an endpoint.
   Decoders and window code are the go2coq translation from this run, with
   run-time panics explicit (constructor Panic). *)
From LNC Require Import GoLite MessagesGen MsgDataGen QueueGen Codec Gbn Window Totality GbnInv GbnSafety.
From LNC Require Import SyncerGen SyncerTotal.
Open Scope Z_scope.

(* every byte string, any length, any values *)
Theorem c07_gbn_deserialize_total : forall b : list Z, Deserialize b <> Panic.
Proof. exact deserialize_total. Qed.
Print Assumptions c07_gbn_deserialize_total.

Theorem c07_msgdata_deserialize_total : forall b : list Z,
  Forall (fun x => 0 <= x) b -> MsgData_decode b <> Panic.
Proof. intros b _. apply msgdata_decode_total. Qed.
Print Assumptions c07_msgdata_deserialize_total.

(* all 256 ACK / NACK values against every window state of every sequence space:
   no panic, bookkeeping inside the sequence space, outstanding count never grows *)
Theorem c07_ack_in_range : forall q s base top sq,
  2 <= s <= 255 -> 0 <= base < s -> 0 <= top < s -> 0 <= sq < 256 ->
  queueCfg_s (queue_cfg q) = s -> queue_sequenceBase q = base -> queue_sequenceTop q = top ->
  exists q' r, queue_processACK q sq = Ok (q', r) /\
    0 <= queue_sequenceBase q' < s /\ queue_sequenceTop q' = top /\
    queueCfg_s (queue_cfg q') = s /\ queue_content q' = queue_content q /\
    wsize s (queue_sequenceBase q') top <= wsize s base top /\ (r = false -> q' = q).
Proof. exact processACK_in_range. Qed.
Print Assumptions c07_ack_in_range.

Theorem c07_nack_in_range : forall q s base top sq,
  2 <= s <= 255 -> 0 <= base < s -> 0 <= top < s -> 0 <= sq < 256 ->
  queueCfg_s (queue_cfg q) = s -> queue_sequenceBase q = base -> queue_sequenceTop q = top ->
  exists q' r1 r2, queue_processNACK q sq = Ok (q', r1, r2) /\
    0 <= queue_sequenceBase q' < s /\ queue_sequenceTop q' = top /\
    queueCfg_s (queue_cfg q') = s /\ queue_content q' = queue_content q /\
    wsize s (queue_sequenceBase q') top <= wsize s base top.
Proof. exact processNACK_in_range. Qed.
Print Assumptions c07_nack_in_range.

(* data phase: in every reachable state of the protocol model no event panics *)
Theorem c07_data_phase_total : forall st ev, Inv st -> dstep st ev <> DPanic.
Proof. exact dstep_no_panic. Qed.
Print Assumptions c07_data_phase_total.

(* the resend bookkeeping (gbn/syncer.go initResendUpTo, translated this run) divides by the size of the sequence
   space s = n + 1: total for every non-empty space and every top, a panic for s = 0, which is what a proposed
   window of 255 would produce in uint8 (the handshake refuses it: C10's window theorems, hostile-SYN scenarios) *)
Theorem c07_resend_bookkeeping_total : forall c top, syncer_s c <> 0 -> syncer_initResendUpTo c top <> Panic.
Proof. exact initResendUpTo_total. Qed.
Print Assumptions c07_resend_bookkeeping_total.

Theorem c07_empty_sequence_space_would_panic : forall c top, syncer_s c = 0 -> syncer_initResendUpTo c top = Panic.
Proof. exact initResendUpTo_empty_space_panics. Qed.
Print Assumptions c07_empty_sequence_space_would_panic.

Example c07_ex_short_data : Deserialize [2; 0; 1] = Ok None /\ Deserialize [2] = Ok None /\ Deserialize [] = Ok None.
Proof. repeat split; reflexivity. Qed.

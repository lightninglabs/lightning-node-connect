(* C16 — handshake and record framing do not depend on transport fragmentation;
   Flush emits exactly the remaining bytes once. *)
From Coq Require Import ZArith List Lia.
From LNC Require Import Noise NoiseRecord NoiseStream.
Import ListNotations.
Open Scope Z_scope.

(* io.ReadFull over a transport that returns the stream in arbitrary fragments: the bytes
   obtained, and what is left, are the same for every fragmentation *)
Theorem c16_read_full_fragmentation : forall chunks k, 0 <= k <= len (concat chunks) ->
  exists rest, read_full k chunks = Some (firstn (Z.to_nat k) (concat chunks), rest)
               /\ concat rest = skipn (Z.to_nat k) (concat chunks).
Proof. exact read_full_frag. Qed.
Print Assumptions c16_read_full_fragmentation.

Theorem c16_fragmentation_independent : forall chunks1 chunks2 k out1 rest1 out2 rest2,
  concat chunks1 = concat chunks2 -> 0 <= k <= len (concat chunks1) ->
  read_full k chunks1 = Some (out1, rest1) -> read_full k chunks2 = Some (out2, rest2) ->
  out1 = out2 /\ concat rest1 = concat rest2.
Proof. exact read_full_frag_indep. Qed.
Print Assumptions c16_fragmentation_independent.

(* any partition of the record's wire bytes into partial writes separated by timeouts:
   emitted ++ still pending = header ++ body, i.e. every byte exactly once, in order *)
Theorem c16_flush_exactly_once : forall accs st out nn st',
  Forall (fun a => 0 <= fst a /\ 0 <= snd a) accs ->
  flush_all st accs = (out, nn, st') ->
  out ++ pw_hdr st' ++ pw_body st' = pw_hdr st ++ pw_body st.
Proof. intros accs st out nn st' _. apply flush_conservation. Qed.
Print Assumptions c16_flush_exactly_once.

(* the counts reported add up to exactly the plaintext length *)
Theorem c16_flush_counts_plaintext : forall accs hdr body out nn st',
  Forall (fun a => 0 <= fst a /\ 0 <= snd a) accs -> mac <= len body ->
  flush_all (mk_pendingw hdr body) accs = (out, nn, st') ->
  pending_nonempty st' = false -> nn = len body - mac.
Proof. intros accs hdr body out nn st' _. apply flush_count. Qed.
Print Assumptions c16_flush_counts_plaintext.

Theorem c16_flush_progress : forall st a1 a2 out nn err st',
  1 <= a1 -> 1 <= a2 -> pending_nonempty st = true ->
  flush st a1 a2 = (out, nn, err, st') ->
  len (pw_hdr st') + len (pw_body st') < len (pw_hdr st) + len (pw_body st).
Proof. exact flush_progress. Qed.
Print Assumptions c16_flush_progress.

Example c16_ex : read_full 5 [[1]; [2; 3]; []; [4; 5; 6]] = Some ([1; 2; 3; 4; 5], [[6]])
              /\ read_full 5 [[1; 2; 3; 4; 5; 6]] = Some ([1; 2; 3; 4; 5], [[6]]).
Proof. vm_compute. split; reflexivity. Qed.

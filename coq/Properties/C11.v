(* C11 — one live connection per session; reconnect and post-pairing switch line up.
   Exclusivity: the session monitor of Model/Session.v over Accept / Dial histories (the real
   Server / Client over a fake relay must produce accepted histories: sampled, PARTIAL).
   Switch: session identifiers and patterns as free terms (Model/Sym.v). *)
From Coq Require Import ZArith List Bool Lia.
From LNC Require Import GoLite Noise GbnMonitor Reconnect ReconnectProofs Session SessionProofs Sym SidProofs.
Import ListNotations.
Open Scope Z_scope.

(* every accepted history, at every point: at most one handed-out connection is open *)
Theorem c11_exclusive : forall pre post st', srun sinit (pre ++ post) = Some st' ->
  (length (open_after pre []) <= 1)%nat.
Proof. exact exclusive_at_every_point. Qed.
Print Assumptions c11_exclusive.

Theorem c11_handed_out_only_after_close : forall st id st',
  sstep st (SRet id) = Some st' -> s_open st = None /\ s_open st' = Some id.
Proof. exact ret_requires_closed. Qed.
Print Assumptions c11_handed_out_only_after_close.

(* after a pairing in which static keys were exchanged both sides derive the SAME new identifier ... *)
Theorem c11_switch_same_rendezvous : forall a b e1 e2,
  sid_of (Priv a) (Some (Pub (Priv b))) e1 = sid_of (Priv b) (Some (Pub (Priv a))) e2.
Proof. exact sid_symmetric. Qed.
Print Assumptions c11_switch_same_rendezvous.
(* ... different from the pass-phrase one, and both use the key-based pattern *)
Theorem c11_switch_new_rendezvous : forall a b e e',
  sid_of (Priv a) (Some (Pub (Priv b))) e <> sid_of (Priv a) None e'.
Proof. exact sid_pairing_changes. Qed.
Print Assumptions c11_switch_new_rendezvous.
Theorem c11_switch_pattern : forall r, pattern_kk (Some r) = true /\ pattern_kk None = false.
Proof. exact pattern_after_pairing. Qed.
Print Assumptions c11_switch_pattern.

(* ... but the move is not atomic. A first pairing that loses its LAST message (a relay failure): the client has
   completed and stored the server's key, the server has failed and stored nothing; the rendezvous identifiers they
   derive from what they now hold differ, whatever the pass-phrase entropy, and so do their patterns (KK and XX)
   (known finding C11/first-pairing-loses-its-last-message; the harness replays it against the implementation) *)
Theorem c11_interrupted_first_pairing_splits_refuted : forall e e',
  let r := run (example_cfg false 0 2 0 2) drop_act3 in
  (exists s, r_init r = Completed s /\ s_set_remote s = true /\ s_remote s = Some (Pub (Priv 2))) /\
  r_resp r = Failed 3 /\
  sid_of (Priv 1) (Some (Pub (Priv 2))) e <> sid_of (Priv 2) None e' /\
  pattern_kk (Some (Pub (Priv 2))) = true /\ pattern_kk None = false.
Proof. exact interrupted_first_pairing_splits. Qed.
Print Assumptions c11_interrupted_first_pairing_splits_refuted.

(* a client that only knows the pass phrase is an XX initiator; against the paired server (a KK
   responder) its first message is rejected, whatever its keys and pass phrase *)
Theorem c11_stranger_rejected : forall stranger server,
  p_kk stranger = false -> p_init stranger = true -> p_kk server = true -> p_init server = false ->
  (exists s0 e0 rs0 pw0 pl0 n0 mn mx, new_party true false s0 e0 rs0 pw0 pl0 n0 mn mx = Some stranger) ->
  (exists s1 e1 r1 pw1 pl1 n1 mn1 mx1, new_party false true s1 e1 (Some r1) pw1 pl1 n1 mn1 mx1 = Some server) ->
  stranger_result stranger server = None.
Proof.
  intros stranger server _ _ _ _ (s0 & e0 & rs0 & pw0 & pl0 & n0 & mn & mx & Hs) _.
  eapply stranger_rejected_gen, new_party_xx_key, Hs.
Qed.
Print Assumptions c11_stranger_rejected.

(* "a fresh working connection": one reader object serves all connections of a session (NoiseGrpcConn, handshaken
   again on every reconnect); since its handshake clears the unread tail of the previous connection, what is read on
   a connection is a prefix of what was written on THAT connection, for both reader kinds, any number of connections,
   any records and any buffer sizes. Without the reset (the code before fix 8891881) the statement is false. *)
Theorem c11_fresh_connection_starts_fresh : forall rd, rd = grpc_read \/ rd = buf_read ->
  forall conns pending,
  Forall (fun c : connection => Forall (fun b => 0 <= b) (snd c)) conns ->
  Forall2 (fun outs (c : connection) => is_prefix (concat outs) (concat (fst c)))
          (Reconnect.session true rd pending conns) conns.
Proof. exact session_streams_are_per_connection. Qed.
Print Assumptions c11_fresh_connection_starts_fresh.

Theorem c11_stale_tail_without_reset_refuted :
  exists conns, ~ Forall2 (fun outs (c : connection) => is_prefix (concat outs) (concat (fst c)))
                          (Reconnect.session false grpc_read [] conns) conns.
Proof. exact session_without_reset_refuted. Qed.
Print Assumptions c11_stale_tail_without_reset_refuted.

Example c11_ex :
  srun sinit [SCall; SRet 0; SCall; SClosed 0; SRet 1] = Some (mk_sst (Some 1) 2 0)
  /\ srun sinit [SCall; SRet 0; SCall; SRet 1] = None.
Proof. vm_compute. split; reflexivity. Qed.

(* Session identifiers (conndata.go SID), the choice of the handshake pattern
   from the stored remote key, and the rejection of an unpaired client by a
   paired server, over the symbolic model Model/Sym.v. *)
From Coq Require Import ZArith List.
From LNC Require Import Sym SymLemmas.
Import ListNotations.
Open Scope Z_scope.

(* before pairing the id depends on the pass-phrase entropy only *)
Theorem sid_same_passphrase : forall a b e, sid_of (Priv a) None e = sid_of (Priv b) None e.
Proof. reflexivity. Qed.

(* after pairing both ends compute the same id, whatever their entropy *)
Theorem sid_symmetric : forall a b e1 e2,
  sid_of (Priv a) (Some (Pub (Priv b))) e1 = sid_of (Priv b) (Some (Pub (Priv a))) e2.
Proof. intros. unfold sid_of. f_equal. apply dh_comm. Qed.

Theorem sid_pairing_changes : forall a b e e',
  sid_of (Priv a) (Some (Pub (Priv b))) e <> sid_of (Priv a) None e'.
Proof. intros. unfold sid_of. discriminate. Qed.

(* unpaired ids are equal only for equal entropy *)
Theorem sid_distinct_entropy : forall l1 l2 e1 e2,
  sid_of l1 None e1 = sid_of l2 None e2 -> e1 = e2.
Proof. intros l1 l2 e1 e2 H. unfold sid_of in H. injection H as H. exact H. Qed.

(* paired ids are equal only for the same pair of keys *)
Theorem sid_distinct_keys : forall a b a' b' e e',
  sid_of (Priv a) (Some (Pub (Priv b))) e = sid_of (Priv a') (Some (Pub (Priv b'))) e' ->
  (a = a' /\ b = b') \/ (a = b' /\ b = a').
Proof.
  intros a b a' b' e e' H. unfold sid_of in H. injection H as H. apply dh_normal_form, H.
Qed.

(* KK exactly when a remote key is stored *)
Theorem pattern_after_pairing : forall r, pattern_kk (Some r) = true /\ pattern_kk None = false.
Proof. intros r. split; reflexivity. Qed.

(* The act-1 seal of an XX initiator is under the all-zero key, because no DH has been mixed in yet.  A
   reader of [Te; Tes; Tss] has mixed two DH results into its key before it opens anything, whatever point
   it was given and whatever keys it holds: the seal does not open. *)
Theorem stranger_rejected_gen : forall stranger server,
  key (p_sym stranger) = ZeroKey ->
  stranger_result stranger server = None.
Proof.
  intros stranger server Hk. unfold stranger_result.
  destruct (write_act stranger [Tme] 1) as [[p1 m1]|] eqn:W; [|reflexivity].
  apply write_act_spec in W. destruct W as (q & out & W & _ & _ & _ & ->).
  cbn [write_tokens] in W. injection W as <- <-.
  destruct (read_act server _ 1 _) as [r1|] eqn:R; [exfalso|reflexivity].
  apply read_act_spec in R. destruct R as (v & fs & q & rest & x & E & _ & _ & RT & S & _).
  cbn [app] in E. injection E as _ <-.
  apply read_tokens_reads in RT. cbn [reads] in RT.
  destruct RT as (f & fs' & E & _ & RT). injection E as <- <-.
  destruct (dh_token _ Tes); [|contradiction]. destruct (dh_token _ Tss); [|contradiction].
  injection RT as <- <-.
  cbn [app payload_seals Z.eqb Pos.eqb p_sym upd_sym] in S. injection S as K _.
  rewrite Hk in K. discriminate K.
Qed.

Lemma new_party_xx_key : forall init st e rs pw pl n mn mx p,
  new_party init false st e rs pw pl n mn mx = Some p -> key (p_sym p) = ZeroKey.
Proof. intros * H. rewrite new_party_xx in H. injection H as <-. reflexivity. Qed.

(* the rejection does not depend on which key the server stored, on the
   stranger's pass phrase, or on the versions either side supports; in
   particular knowing the pass phrase does not help once the server is paired *)
Corollary stranger_rejected_any_passphrase : forall s0 e0 pw0 mn mx stranger server r,
  new_party true false s0 e0 None pw0 Empty 0 mn mx = Some stranger ->
  p_init server = false -> p_rs server = Some r ->
  stranger_result stranger server = None.
Proof. intros * Hs _ _. eapply stranger_rejected_gen, new_party_xx_key, Hs. Qed.

Print Assumptions sid_same_passphrase.
Print Assumptions sid_symmetric.
Print Assumptions sid_pairing_changes.
Print Assumptions sid_distinct_entropy.
Print Assumptions sid_distinct_keys.
Print Assumptions pattern_after_pairing.
Print Assumptions stranger_rejected_gen.
Print Assumptions stranger_rejected_any_passphrase.

Definition drop_act3 : adversary := fun a m => if a =? 3 then [] else m.

(* XX at version 2, act 3 never arrives: the initiator has completed and called SetRemote with the responder's key,
   the responder has failed and stored nothing; the rendezvous and the pattern each side derives from what it now
   holds differ, for any pass phrase *)
Theorem interrupted_first_pairing_splits : forall e e',
  let r := run (example_cfg false 0 2 0 2) drop_act3 in
  (exists s, r_init r = Completed s /\ s_set_remote s = true /\ s_remote s = Some (Pub (Priv 2))) /\
  r_resp r = Failed 3 /\
  sid_of (Priv 1) (Some (Pub (Priv 2))) e <> sid_of (Priv 2) None e' /\
  pattern_kk (Some (Pub (Priv 2))) = true /\ pattern_kk None = false.
Proof.
  intros e e'. cbv zeta.
  split.
  - eexists. split; [vm_compute; reflexivity|]. split; reflexivity.
  - split; [vm_compute; reflexivity|]. split; [unfold sid_of; discriminate|]. split; reflexivity.
Qed.

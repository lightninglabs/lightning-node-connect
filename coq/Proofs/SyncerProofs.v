(* Proofs about the generated syncer.initResendUpTo (gen/SyncerGen.v, from gbn/syncer.go).

   The syncer waits, after a resend round, for the ACK of the last packet of the window: the predecessor of
   `top` in the sequence space 0..s-1. The code computes it as (s + top - 1) % s in uint8 arithmetic. *)
From LNC Require Import GoLite SyncerGen.
Open Scope Z_scope.

(* what the function computes, for every uint8 sequence space and every top inside it: no panic, the state
   is "resending", the expected NACK is top, and the expected ACK lies inside the sequence space *)
Lemma initResendUpTo_in_range : forall c top,
  1 <= syncer_s c <= 255 -> 0 <= top < syncer_s c ->
  exists c', syncer_initResendUpTo c top = Ok c' /\
    syncer_s c' = syncer_s c /\ syncer_state c' = 1 /\ syncer_expectedNACK c' = top /\
    0 <= syncer_expectedACK c' < syncer_s c /\
    syncer_expectedACK c' = ((syncer_s c + top - 1) mod 256) mod syncer_s c.
Proof.
  intros [s st ea en] top Hs Ht; cbn [syncer_s] in *.
  unfold syncer_initResendUpTo, u8; cbn [set_syncer_state set_syncer_expectedACK set_syncer_expectedNACK
    syncer_s syncer_state syncer_expectedACK syncer_expectedNACK].
  rewrite umod_ok by lia. cbn [bind].
  eexists; split; [reflexivity|]. cbn [syncer_s syncer_state syncer_expectedACK syncer_expectedNACK].
  repeat split; try lia.
  - apply Z.mod_pos_bound; lia.
  - apply Z.mod_pos_bound; lia.
  - rewrite Zminus_mod_idemp_l. reflexivity.
Qed.

(* it is the predecessor of top whenever s + top - 1 fits a uint8 (in particular for every s <= 128) *)
Lemma initResendUpTo_predecessor : forall c top c',
  1 <= syncer_s c <= 255 -> 0 <= top < syncer_s c -> syncer_s c + top <= 256 ->
  syncer_initResendUpTo c top = Ok c' ->
  (syncer_expectedACK c' + 1) mod syncer_s c = top.
Proof.
  intros c top c' Hs Ht Hfit H.
  destruct (initResendUpTo_in_range c top Hs Ht) as (c2 & H2 & _ & _ & _ & _ & Hea).
  rewrite H in H2; injection H2 as <-. rewrite Hea.
  rewrite (Z.mod_small (syncer_s c + top - 1) 256) by lia.
  rewrite Zplus_mod_idemp_l. replace (syncer_s c + top - 1 + 1) with (top + 1 * syncer_s c) by lia.
  rewrite Z_mod_plus_full. apply Z.mod_small; lia.
Qed.

Lemma small_space_fits : forall s top, 1 <= s <= 128 -> 0 <= top < s -> s + top <= 256.
Proof. lia. Qed.

(* ... and NOT in general: s = 200 (a window of 199), top = 100 gives 43, the predecessor is 99.
   (noted defect: the sync wait then ends only by NACK(top) or by its own timer, 3 x the resend timeout,
   gbn/syncer.go awaitingTimeoutMultiplier; not a safety property) *)
Lemma initResendUpTo_predecessor_refuted : exists c top c',
  1 <= syncer_s c <= 255 /\ 0 <= top < syncer_s c /\
  syncer_initResendUpTo c top = Ok c' /\ (syncer_expectedACK c' + 1) mod syncer_s c <> top.
Proof.
  exists (mk_syncer 200 0 0 0), 100, (mk_syncer 200 1 43 100).
  repeat split; try (cbn; lia).
Qed.

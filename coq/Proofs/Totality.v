(* No byte string makes the generated decoders panic (C07): every index and re-slice stands behind a
   length test that puts it in range. *)
From LNC Require Import GoLite MessagesGen MsgDataGen Codec.
Open Scope Z_scope.

Lemma deserialize_total (b : list Z) : Deserialize b <> Panic.
Proof.
  unfold Deserialize.
  destruct (Z.ltb_spec (len b) 1); [discriminate|].
  rewrite (idx_ok b 0 0) by lia. cbn [bind].
  (* each tag has its own length test in front of its fields *)
  destruct (_ =? 2).
  { destruct (Z.ltb_spec (len b) 4); [discriminate|].
    rewrite !(idx_ok b _ 0), slice_from_ok by lia. discriminate. }
  destruct (_ =? 3).
  { destruct (Z.ltb_spec (len b) 2); [discriminate|]. rewrite (idx_ok b 1 0) by lia. discriminate. }
  destruct (_ =? 4).
  { destruct (Z.ltb_spec (len b) 2); [discriminate|]. rewrite (idx_ok b 1 0) by lia. discriminate. }
  destruct (_ =? 1).
  { destruct (Z.ltb_spec (len b) 2); [discriminate|]. rewrite (idx_ok b 1 0) by lia. discriminate. }
  destruct (_ =? 5); [discriminate|]. destruct (_ =? 6); discriminate.
Qed.

(* holds for every list over Z: a length field that is not positive is never used to re-slice *)
Lemma msgdata_deserialize_total (m : MsgData) (b : list Z) : MsgData_Deserialize m b <> Panic.
Proof.
  unfold MsgData_Deserialize.
  destruct (Z.ltb_spec (len b) 5); [discriminate|].
  rewrite (idx_ok b 0 0) by lia. cbn [bind].
  destruct (slice_total b 1 5) as (lb & -> & Hlb); [lia..|]. cbn [bind].
  destruct (be32_get_total lb) as [pl ->]; [lia|]. cbn [bind].
  destruct (Z.ltb_spec (len b) (5 + pl)); [discriminate|].
  destruct (Z.ltb_spec 0 pl); [|discriminate].
  destruct (slice_total b 5 (5 + pl)) as (r & -> & _); [lia..|]. discriminate.
Qed.

Lemma msgdata_decode_total (b : list Z) : MsgData_decode b <> Panic.
Proof.
  unfold MsgData_decode.
  pose proof (msgdata_deserialize_total (NewMsgData 0 []) b) as H.
  destruct (MsgData_Deserialize (NewMsgData 0 []) b) as [[m e]|]; [|contradiction].
  discriminate.
Qed.

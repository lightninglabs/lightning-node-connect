(* C04 under an active man in the middle that cannot forge ciphertexts.  One seal decides: the party that
   reads the last act opens the seal after its tokens with a key that has every DH result of the pattern
   behind it; no other seal of the run is under such a key with that nonce, so it is the one its writer made. *)
From Coq Require Import ZArith List Bool Lia.
From LNC Require Import Sym SymLemmas SymProofs.
Open Scope Z_scope.

Lemma accepted_was_sent {c adv W a m fields f} :
  no_forgery_run c adv -> r_wire (run c adv) = W ->
  nth_error W (Z.to_nat (a - 1)) = Some m -> 1 <= a -> adv a m = fields ->
  In f fields -> is_seal f = true -> In f (concat W).
Proof.
  intros NF <- Hn Ha <- Hin Hs.
  destruct (NF a m f Hn Ha Hin Hs) as (m' & Hm & Hf). apply in_concat. eauto.
Qed.

(* H : In (seal_of s x) (concat [m1; ..]), the messages spelt out.  Every field that is no seal goes, and
   every seal made under another key or with another nonce: key and nonce of a folded state are computed
   (call by need, so that no handshake hash is ever unfolded).  One goal is left for each seal that survives,
   which is the one the honest writer made at the same point; it has the equations K : key, N : nonce,
   A : handshake hash, X : plaintext under exactly these names, which must be free.  If no seal survives, the
   goal is closed.  (The first discriminate also drops a seal whose hash or plaintext has another shape than
   the reader's: that is how the cases go in which writer and reader use different payload formats.) *)
Ltac which_seal H :=
  cbn [concat app In] in H;
  repeat (destruct H as [H|H];
          [ try discriminate H; apply seal_of_inj in H; destruct H as (K & N & A & X);
            lazy [key nonce ck mix_hash mix_key after_seal sym0 Z.add Pos.add Pos.succ] in K, N;
            try discriminate K; try discriminate N | ]);
  try contradiction H.

(* XX: the responder reads last *)
Lemma xx_tamper : forall c adv sr, c_kk c = false -> no_forgery_run c adv ->
  r_resp (run c adv) = Completed sr ->
  exists si, r_init (run c adv) = Completed si /\
    s_send si = s_recv sr /\ s_recv si = s_send sr /\
    s_remote si = Some (Pub (Priv (c_sr c))) /\ s_remote sr = Some (Pub (Priv (c_si c))) /\
    s_auth si = Some (c_payload c).
Proof.
  intros c adv sr Hkk NF Hr.
  destruct (run_completed c adv) as (pi & pr & Ei & Er & ER); [rewrite Hr; apply orb_true_r|].
  unfold mk_init, mk_resp in Ei, Er. rewrite Hkk in *.
  rewrite new_party_xx in Ei, Er. injection Ei as <-. injection Er as <-.
  rewrite ER in Hr |- *. destruct (run_xx_completed _ _ _ _ Hr)
    as (i1 & m1 & r1 & r2 & m2 & i2 & i3 & m3 & r3 & W1 & R1 & W2 & R2 & W3 & R3 & E).
  rewrite E in Hr, ER |- *. injection Hr as <-. clear E.
  exists (finish i3). split; [reflexivity|].
  apply (f_equal r_wire) in ER. cbn [r_wire] in ER.
  apply write_act_spec in W1. destruct W1 as (q & out & W & _ & _ & -> & M1).
  pnorm in W. injection W as <- <-. pnorm in M1.
  pnorm in R1. apply read_act_spec in R1. destruct R1 as (v1 & fs1 & q & rest1 & x1 & _ & _ & _ & RT & _ & ->).
  apply read_tokens_reads in RT. pnorm in RT. destruct RT as (f1 & fs1' & _ & _ & RT). injection RT as <- _.
  (* the initiator's ephemeral key as the responder sees it; it recurs in every later hash, and a variable in
     its place keeps them small *)
  remember (unmask f1 (c_pwr c)) as e1 eqn:He1. clear He1.
  pnorm in W2. apply write_act_spec in W2. destruct W2 as (q & out & W & _ & _ & -> & M2).
  pnorm in W. rewrite !encrypt_eq in W. pnorm in W. injection W as <- <-. pnorm in M2.
  pnorm in R2. apply read_act_spec in R2. destruct R2 as (v2 & fs2 & q & rest2 & x & _ & _ & _ & RT & _ & ->).
  apply read_tokens_reads in RT. pnorm in RT.
  destruct RT as (f2 & fs2' & _ & _ & rs2 & fs2'' & _ & _ & RT). injection RT as <- _.
  pnorm in W3. apply write_act_spec in W3. destruct W3 as (q & out & W & _ & _ & -> & M3).
  pnorm in W. rewrite !encrypt_eq in W. pnorm in W. injection W as <- <-. pnorm in M3.
  pnorm in R3. apply read_act_spec in R3. destruct R3 as (v3 & fs3 & q & rest3 & x3 & E3 & _ & _ & RT & -> & ->).
  apply read_tokens_reads in RT. pnorm in RT. destruct RT as (rs3 & fs3' & -> & _ & RT).
  injection RT as <- ->. pnorm in E3.
  pnorm.
  (* the two formats of the act-2 payload, as written (c_maxr) and as read (v2): four cases, all treated alike *)
  unfold act2_seals, act2_after in *.
  destruct (c_maxr c =? 0), (v2 =? 0).
  (* the seal that ends act 3: the third field delivered (or_intror (or_intror (or_introl _))), after the
     version byte and the sealed static key.  K: writer and reader hold the same chaining key, hence the same
     session keys; A: and the same handshake hash, which is made of every field of the run, each seal with its
     plaintext: the static keys and the payload *)
  all: pose proof (accepted_was_sent (a := 3) NF ER eq_refl ltac:(lia) E3
                     (or_intror (or_intror (or_introl eq_refl))) eq_refl) as S.
  all: rewrite M1, M2, M3 in S; which_seal S.
  all: autorewrite with hdhash in A; unfold seal_of in A.
  all: lazy [ck mix_key mix_hash after_seal sym0]; repeat split; congruence.
Qed.

(* KK: the initiator reads last *)
Lemma kk_tamper : forall c adv si, c_kk c = true -> no_forgery_run c adv ->
  r_init (run c adv) = Completed si ->
  exists sr, r_resp (run c adv) = Completed sr /\
    s_send si = s_recv sr /\ s_recv si = s_send sr /\
    s_remote si = Some (Pub (Priv (c_sr c))) /\ s_remote sr = Some (Pub (Priv (c_si c))) /\
    s_auth si = Some (c_payload c).
Proof.
  intros c adv si Hkk NF Hi.
  destruct (run_completed c adv) as (pi & pr & Ei & Er & ER); [rewrite Hi; reflexivity|].
  unfold mk_init, mk_resp in Ei, Er. rewrite Hkk in *.
  (* the stored keys, of which nothing is known, as variables: for the size of the hashes, as e1 above *)
  remember (c_exp_i c) as xi eqn:Hxi. remember (c_exp_r c) as xr eqn:Hxr. clear Hxi Hxr.
  rewrite new_party_kk in Ei, Er.
  destruct (c_maxi c <? 2); [discriminate|]. destruct (c_maxr c <? 2); [discriminate|].
  injection Ei as <-. injection Er as <-.
  rewrite ER in Hi |- *. destruct (run_kk_completed _ _ _ _ Hi)
    as (i1 & m1 & r1 & r2 & m2 & i2 & W1 & R1 & W2 & R2 & E).
  rewrite E in Hi, ER |- *. injection Hi as <-. clear E.
  exists (finish r2). split; [reflexivity|].
  apply (f_equal r_wire) in ER. cbn [r_wire] in ER.
  apply write_act_spec in W1. destruct W1 as (q & out & W & _ & _ & -> & M1).
  pnorm in W. injection W as <- <-. pnorm in M1.
  pnorm in R1. apply read_act_spec in R1. destruct R1 as (v1 & fs1 & q & rest1 & x1 & _ & _ & _ & RT & _ & ->).
  apply read_tokens_reads in RT. pnorm in RT. destruct RT as (f1 & fs1' & _ & _ & RT). injection RT as <- _.
  pnorm in W2. apply write_act_spec in W2. destruct W2 as (q & out & W & _ & _ & -> & M2).
  pnorm in W. injection W as <- <-. pnorm in M2.
  pnorm in R2. apply read_act_spec in R2. destruct R2 as (v2 & fs2 & q & rest2 & x & E2 & _ & _ & RT & -> & ->).
  apply read_tokens_reads in RT. pnorm in RT. destruct RT as (f2 & fs2' & -> & _ & RT).
  injection RT as <- ->. pnorm in E2.
  pnorm.
  (* as for XX; new_party has raised every version bound to 2, so only the last of the four cases occurs,
     but the others pass as well, which is shorter than refuting them *)
  unfold act2_seals, act2_after in *.
  destruct (c_maxr c =? 0), (v2 =? 0).
  (* the first payload seal of act 2, again the third field (after the version byte and the ephemeral key);
     K and A as for XX, X: the payload *)
  all: pose proof (accepted_was_sent (a := 2) NF ER eq_refl ltac:(lia) E2
                     (or_intror (or_intror (or_introl eq_refl))) eq_refl) as S.
  all: rewrite M1, M2 in S; which_seal S.
  all: injection X as <-.
  all: autorewrite with hdhash in A; unfold seal_of in A.
  all: lazy [ck mix_key mix_hash after_seal sym0]; repeat split; congruence.
Qed.

(* C04, under no_forgery_run (which no_forgery implies; SymProofs.v says why no_forgery itself is met by no
   forwarding adversary).  The pass phrases, the payload and, for KK, the stored keys c_exp_i / c_exp_r are
   arbitrary terms: a KK run with wrong stored keys does not complete. *)
Theorem tamper_agreement_run : forall c adv si sr, no_forgery_run c adv ->
  r_init (run c adv) = Completed si -> r_resp (run c adv) = Completed sr ->
  s_send si = s_recv sr /\ s_recv si = s_send sr /\
  s_remote si = Some (Pub (Priv (c_sr c))) /\ s_remote sr = Some (Pub (Priv (c_si c))) /\
  s_auth si = Some (c_payload c).
Proof.
  intros c adv si sr NF Hi Hr. destruct (c_kk c) eqn:K.
  - destruct (kk_tamper c adv si K NF Hi) as (sr' & Hr' & H). rewrite Hr in Hr'. injection Hr' as <-. exact H.
  - destruct (xx_tamper c adv sr K NF Hr) as (si' & Hi' & H). rewrite Hi in Hi'. injection Hi' as <-. exact H.
Qed.

Theorem tamper_agreement : forall c adv si sr, wf c -> no_forgery c adv ->
  r_init (run c adv) = Completed si -> r_resp (run c adv) = Completed sr ->
  s_send si = s_recv sr /\ s_recv si = s_send sr /\
  s_remote si = Some (Pub (Priv (c_sr c))) /\ s_remote sr = Some (Pub (Priv (c_si c))) /\
  s_auth si = Some (c_payload c).
Proof.
  (* distinct scalars are not needed: the session keys are compared as terms, never through the scalars of a
     DH result *)
  intros c adv si sr _ NF. apply tamper_agreement_run. apply no_forgery_run_weaker. exact NF.
Qed.

Corollary faithful_agreement : forall c si sr,
  r_init (run c faithful) = Completed si -> r_resp (run c faithful) = Completed sr ->
  s_send si = s_recv sr /\ s_recv si = s_send sr /\
  s_remote si = Some (Pub (Priv (c_sr c))) /\ s_remote sr = Some (Pub (Priv (c_si c))) /\
  s_auth si = Some (c_payload c).
Proof. intros c si sr. apply tamper_agreement_run. apply faithful_no_forgery_run. Qed.

Corollary version_swap_keys_agree : forall c si sr,
  r_init (run c version_swap) = Completed si -> r_resp (run c version_swap) = Completed sr ->
  s_send si = s_recv sr /\ s_recv si = s_send sr /\
  s_remote si = Some (Pub (Priv (c_sr c))) /\ s_remote sr = Some (Pub (Priv (c_si c))) /\
  s_auth si = Some (c_payload c).
Proof. intros c si sr. apply tamper_agreement_run. apply version_swap_no_forgery_run. Qed.

Print Assumptions tamper_agreement_run.
Print Assumptions tamper_agreement.

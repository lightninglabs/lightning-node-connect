(* Safety of the one-direction Go-Back-N system (Model/Gbn.v): the invariant
   Inv of GbnInv.v holds initially, is preserved by every step, no step of
   the generated queue code panics from a state satisfying it, and the
   delivered stream is a prefix of the sent stream. *)
From LNC Require Import GoLite MessagesGen QueueGen Gbn Window GbnInv.
Open Scope Z_scope.

Lemma firstn_succ_nth {A} (l : list A) k x :
  nth_error l k = Some x -> firstn (S k) l = firstn k l ++ [x].
Proof.
  revert k; induction l as [|a l IH]; intros k H; destruct k; cbn in *; try discriminate.
  - inversion H; reflexivity.
  - f_equal. apply IH; exact H.
Qed.

Lemma chop_eq_dec (a b : chop) : {a = b} + {a <> b}.
Proof. decide equality. Qed.

(* a channel decision leaves a sublist of the channel, whose elements are not below the old head *)
Lemma after_op_incl {A} o (h : A) rest x : In x (after_op o h rest) -> In x (h :: rest).
Proof. destruct o; cbn [after_op]; intros H; try exact H; right; exact H. Qed.

Lemma Forall_after_op {A} (P : A -> Prop) o h rest : Forall P (h :: rest) -> Forall P (after_op o h rest).
Proof. intros H. destruct o; cbn [after_op]; try exact H; exact (Forall_inv_tail H). Qed.

Lemma sorted_after_op {A} (f : A -> Z) o h rest :
  sorted (map f (h :: rest)) ->
  sorted (map f (after_op o h rest)) /\ forall x, In x (after_op o h rest) -> f h <= f x.
Proof.
  intros H. split; [destruct o; cbn [after_op]; try exact H; exact (proj2 H)|].
  intros x Hx. apply after_op_incl in Hx. destruct Hx as [<-|Hx]; [lia|].
  apply (proj1 H). apply in_map. exact Hx.
Qed.

Lemma slot_index_range T s k : 0 < s -> T - s <= slot_index T s k < T.
Proof. intros Hs. unfold slot_index. pose proof (Z.mod_pos_bound (T - 1 - k) s Hs). lia. Qed.

Lemma slot_index_mod T s k : 0 <= k < s -> slot_index T s k mod s = k.
Proof.
  intros Hk. unfold slot_index. rewrite Zminus_mod_idemp_r.
  replace (T - 1 - (T - 1 - k)) with k by lia. apply Z.mod_small; lia.
Qed.

Lemma slot_index_unique T s k d :
  0 <= k < s -> d mod s = k -> T - s <= d < T -> slot_index T s k = d.
Proof.
  intros Hk Hd Hr. pose proof (slot_index_range T s k ltac:(lia)).
  apply (mod_unique _ _ s); [lia| |lia]. rewrite slot_index_mod by lia. lia.
Qed.

Lemma slot_index_above T s k :
  0 <= k < s -> k <> T mod s -> T - s < slot_index T s k.
Proof.
  intros Hk Hne. pose proof (slot_index_range T s k ltac:(lia)) as Hr.
  pose proof (slot_index_mod T s k Hk) as Hm.
  destruct (Z.eq_dec (slot_index T s k) (T - s)) as [Heq|Hn]; [|lia].
  exfalso. apply Hne. rewrite <- Hm, Heq. replace (T - s) with (T + (-1) * s) by lia. apply Z.mod_add. lia.
Qed.

Lemma slot_index_succ T s k :
  0 <= k < s -> k <> T mod s -> slot_index (T + 1) s k = slot_index T s k.
Proof.
  intros Hk Hne. pose proof (slot_index_range T s k ltac:(lia)).
  pose proof (slot_index_above T s k Hk Hne).
  apply slot_index_unique; try lia. apply slot_index_mod; lia.
Qed.

Lemma slot_index_top T s : 0 < s -> slot_index (T + 1) s (T mod s) = T.
Proof.
  intros Hs. pose proof (Z.mod_pos_bound T s Hs). apply slot_index_unique; lia.
Qed.

Lemma mod_neq_window d T s : 0 < s -> d < T -> T - d < s -> d mod s <> T mod s.
Proof.
  intros Hs H1 H2 Heq. assert (d = T) by (apply (mod_unique _ _ s); lia). lia.
Qed.

(* projections of an explicit state or queue, in the goal and the hypotheses *)
Ltac simpl_st :=
  cbn [d_n d_q d_recv d_rs d_pend d_fwd d_bwd d_B d_T d_R d_sent d_delivered
       queue_cfg queue_content queue_sequenceBase queue_sequenceTop queueCfg_s
       set_queue_sequenceTop set_queue_content set_queue_sequenceBase with_base] in *.

Definition good (P : dsys -> Prop) (r : dres) : Prop :=
  match r with DOk st' => P st' | DReject => True | DPanic => False end.

Lemma good_ok P r st : good P r -> r = DOk st -> P st.
Proof. intros H ->. exact H. Qed.

Lemma good_no_panic P r : good P r -> r <> DPanic.
Proof. intros H ->. exact H. Qed.

Lemma dinit_inv n : 1 <= n <= 254 -> Inv (dinit n).
Proof.
  intros Hn. unfold dinit. constructor; simpl_st; try first [exact I | reflexivity | lia | apply Forall_nil].
  - constructor; simpl_st; try lia; reflexivity.
  - unfold len. rewrite repeat_length. lia.
  - intros d p H. apply nth_sent_range in H. simpl_st. unfold len in H. cbn [length] in H. lia.
  - intros k p Hk H.
    rewrite (idx_ok _ _ None), nth_repeat in H by (unfold len; rewrite repeat_length; lia). discriminate.
Qed.

Lemma recv_next st : Inv st -> umod (u8 (d_recv st + 1)) (d_rs st) = Ok ((d_R st + 1) mod (d_n st + 1)).
Proof.
  intros Hinv. pose proof (so_n _ _ _ _ (i_sender st Hinv)) as Hn.
  pose proof (Z.mod_pos_bound (d_R st) (d_n st + 1) ltac:(lia)).
  rewrite (i_rs st Hinv), (i_recv st Hinv), umod_ok, u8_small, Zplus_mod_idemp_l by lia. reflexivity.
Qed.

(* a control item carrying the cumulative index e moves the base to e, whether it is sent as
   ACK (e - 1) or as NACK e, and whether or not the queue code reports a change *)
Lemma ctrl_apply st it (k : queue -> dres) : Inv st -> bitem_ok st it ->
  match b_ctrl it with
  | CAck a => lift (queue_processACK (d_q st) a) (fun '(q', _) => k q')
  | CNack v => lift (queue_processNACK (d_q st) v) (fun '(q', _, _) => k q')
  end = k (with_base (d_q st) (b_e it mod (d_n st + 1))).
Proof.
  intros Hinv (He & Hc). pose proof (i_sender st Hinv) as Hsnd. pose proof (i_R st Hinv) as HR.
  destruct (b_ctrl it) as [a|v]; cbn [ctrl_ok] in Hc.
  - destruct Hc as [He1 ->].
    destruct (processACK_index _ _ _ _ (b_e it) Hsnd ltac:(lia) He1) as (r & ->). reflexivity.
  - subst v. destruct (processNACK_index _ _ _ _ (b_e it) Hsnd ltac:(lia)) as (r1 & r2 & ->). reflexivity.
Qed.

(* so delivering the head of the ACK/NACK channel is: B := e *)
Lemma dstep_bwd st it rest o : Inv st -> d_bwd st = it :: rest -> o <> Drop ->
  dstep st (DBwd o) =
    DOk (mk_dsys (d_n st) (with_base (d_q st) (b_e it mod (d_n st + 1))) (d_recv st) (d_rs st) (d_pend st)
           (d_fwd st) (after_op o it rest) (b_e it) (d_T st) (d_R st) (d_sent st) (d_delivered st)).
Proof.
  intros Hinv E Ho. pose proof (i_bwd st Hinv) as Hit. rewrite E in Hit. apply Forall_inv in Hit.
  pose proof (i_sender st Hinv) as [Hn HBT Hw Hcs Hb Ht]. destruct Hit as (He & Hc). pose proof (i_R st Hinv).
  assert (Hadv : d_B st + (b_e it mod (d_n st + 1) - queue_sequenceBase (d_q st)) mod (d_n st + 1) = b_e it).
  { rewrite Hb. change (d_B st + wsize (d_n st + 1) (d_B st mod (d_n st + 1)) (b_e it mod (d_n st + 1)) = b_e it).
    rewrite wsize_ghost; lia. }
  unfold dstep. rewrite E. cbv zeta.
  destruct o; [| |contradiction]; rewrite (ctrl_apply st it) by (exact Hinv || (split; assumption));
    simpl_st; rewrite Hadv; reflexivity.
Qed.

(* under Inv the receiver's test on residues is the test on indices: an item in flight carries an index within n
   of R *)
Lemma recv_test st it : Inv st -> fitem_ok st it ->
  (PacketData_Seq (f_pkt it) =? d_recv st) = (f_d it =? d_R st).
Proof.
  intros Hinv (Hi1 & Hi2 & Hi3 & Hi4 & Hi5 & Hi6).
  pose proof (i_sender st Hinv) as [Hn HBT Hw _ _ _]. pose proof (i_R st Hinv) as HR.
  rewrite (i_seq st Hinv _ _ Hi6), (i_recv st Hinv).
  destruct (Z.eqb_spec (f_d it) (d_R st)) as [->|E]; [apply Z.eqb_refl|].
  apply Z.eqb_neq. intros Heq. apply E, (mod_unique _ _ (d_n st + 1)); lia.
Qed.

(* so receiving the head of the DATA channel is: accept it iff it is the next one *)
Lemma dstep_fwd st it rest o : Inv st -> d_fwd st = it :: rest -> o <> Drop ->
  dstep st (DFwd o) =
    DOk (if f_d it =? d_R st
         then mk_dsys (d_n st) (d_q st) ((d_R st + 1) mod (d_n st + 1)) (d_rs st)
                (Some (CAck (PacketData_Seq (f_pkt it)))) (after_op o it rest) (d_bwd st)
                (d_B st) (d_T st) (d_R st + 1) (d_sent st) (d_delivered st ++ [f_pkt it])
         else mk_dsys (d_n st) (d_q st) (d_recv st) (d_rs st) (Some (CNack (d_recv st))) (after_op o it rest)
                (d_bwd st) (d_B st) (d_T st) (d_R st) (d_sent st) (d_delivered st)).
Proof.
  intros Hinv E Ho. pose proof (i_fwd st Hinv) as Hit. rewrite E in Hit. apply Forall_inv in Hit.
  unfold dstep. rewrite E, (recv_next st Hinv). cbv zeta. rewrite (recv_test st it Hinv Hit).
  destruct o; [| |contradiction]; destruct (_ =? _); reflexivity.
Qed.

(* the slot k <> top holds the packet with the largest index below T in the residue class k *)
Lemma content_at st k : Inv st -> 0 <= k < d_n st + 1 -> k <> d_T st mod (d_n st + 1) ->
  0 <= slot_index (d_T st) (d_n st + 1) k ->
  idx (queue_content (d_q st)) k = Ok (nth_sent st (slot_index (d_T st) (d_n st + 1) k)).
Proof.
  intros Hinv Hk Hne H0.
  pose proof (slot_index_range (d_T st) (d_n st + 1) k ltac:(lia)).
  pose proof (slot_index_above (d_T st) (d_n st + 1) k Hk Hne).
  rewrite <- (i_content st Hinv) by lia. rewrite slot_index_mod by lia. reflexivity.
Qed.

(* events that touch only the channels and the pending reply *)
Lemma Inv_chan st pend' fwd' bwd' : Inv st ->
  match pend' with Some c => ctrl_ok (d_n st + 1) c (d_R st) | None => True end ->
  Forall (fitem_ok st) fwd' -> sorted (map f_t fwd') ->
  Forall (bitem_ok st) bwd' -> sorted (map b_e bwd') ->
  Inv (mk_dsys (d_n st) (d_q st) (d_recv st) (d_rs st) pend' fwd' bwd'
         (d_B st) (d_T st) (d_R st) (d_sent st) (d_delivered st)).
Proof. intros [] Hp Hf Hfs Hb Hbs. constructor; assumption. Qed.

Lemma dstep_good_new st p : Inv st -> good Inv (dstep st (DNew p)).
Proof.
  intros Hinv.
  pose proof Hinv as [Hsnd HR Hrecv Hrs Hclen Hslen Hpre Hseq Hcont Hcinv Hfwd Hfs Hbwd Hbs Hpend].
  pose proof Hsnd as [Hn HBT Hw Hcs Hb Ht].
  unfold dstep. rewrite (size_ghost _ _ _ _ Hsnd). cbn [lift].
  destruct (Z.ltb_spec (d_T st - d_B st) (d_n st)) as [Hroom|]; cbn [negb]; [|exact I].
  destruct (addPacket_ghost _ _ _ _ p Hsnd Hclen) as (c' & -> & Hlen' & Hnew & Hold). cbn [lift good].
  pose proof (Z.mod_pos_bound (d_T st) (d_n st + 1) ltac:(lia)) as HTm.
  set (p' := set_PacketData_Seq p _) in *. set (st' := mk_dsys _ _ _ _ _ _ _ _ _ _ _ _).
  assert (Hsent : forall d, nth_sent st' d = if d =? d_T st then Some p' else nth_sent st d).
  { intros d. rewrite (nth_sent_snoc st st' _ d eq_refl), Hslen. reflexivity. }
  assert (Hmono : forall d q, nth_sent st d = Some q -> nth_sent st' d = Some q).
  { intros d q H. pose proof (nth_sent_range _ _ _ H). rewrite Hsent. destruct (Z.eqb_spec d (d_T st)); [lia|exact H]. }
  subst st'. constructor; simpl_st; try assumption; try lia.
  - (* i_sender *) constructor; simpl_st; try assumption; try lia; reflexivity.
  - (* i_sentlen *) rewrite len_app, Hslen. reflexivity.
  - (* i_prefix *) rewrite firstn_app.
    replace (Z.to_nat (d_R st) - length (d_sent st))%nat with 0%nat by (unfold len in Hslen; lia).
    cbn [firstn]. rewrite app_nil_r. exact Hpre.
  - (* i_seq *) intros d q. rewrite Hsent. destruct (Z.eqb_spec d (d_T st)) as [->|]; [|apply Hseq].
    intros H; inversion H; reflexivity.
  - (* i_content *) intros d Hd Hwin. rewrite Hsent. destruct (Z.eqb_spec d (d_T st)) as [->|Hne]; [exact Hnew|].
    rewrite Hold; [apply Hcont; lia|apply Z.mod_pos_bound; lia|apply mod_neq_window; lia].
  - (* i_content_inv: the slot just written holds index T; every other slot holds what it held *)
    intros k q Hk H.
    destruct (Z.eq_dec k (d_T st mod (d_n st + 1))) as [Heq|Hne].
    + subst k. rewrite slot_index_top by lia. lia.
    + rewrite slot_index_succ by lia. apply (Hcinv k q Hk). rewrite <- Hold by lia. exact H.
  - (* i_fwd *) apply Forall_app. split.
    + eapply Forall_impl; [|exact Hfwd]. intros it Hit. pose proof Hit as (_ & _ & _ & _ & H5 & _).
      apply (fitem_ok_mono st); simpl_st; try lia; try reflexivity; assumption.
    + constructor; [|constructor]. unfold fitem_ok. cbn [f_d f_t f_pkt]. simpl_st.
      repeat split; try lia. rewrite Hsent, Z.eqb_refl. reflexivity.
  - (* i_fwd_sorted *) rewrite map_app. cbn [map f_t]. apply sorted_app_tail; [exact Hfs|].
    intros x Hx. pose proof (fwd_t_le st _ x Hfwd Hx). lia.
Qed.

Lemma dstep_good_retx st k : Inv st -> good Inv (dstep st (DRetx k)).
Proof.
  intros Hinv. pose proof (so_n _ _ _ _ (i_sender st Hinv)) as Hn.
  unfold dstep. rewrite (so_s _ _ _ _ (i_sender st Hinv)), (so_top _ _ _ _ (i_sender st Hinv)).
  destruct (Z.eqb_spec k (d_T st mod (d_n st + 1))), (Z.ltb_spec k 0), (Z.leb_spec (d_n st + 1) k);
    cbn [orb]; try exact I.
  destruct (idx (queue_content (d_q st)) k) as [[q|]|] eqn:Eidx; try exact I.
  (* a slot that holds a packet was written, so its index is not negative *)
  pose proof (i_content_inv st Hinv k q ltac:(lia) Eidx) as Hd0.
  rewrite content_at in Eidx by (assumption || lia). injection Eidx as Hnth.
  pose proof (slot_index_range (d_T st) (d_n st + 1) k ltac:(lia)).
  pose proof (slot_index_above (d_T st) (d_n st + 1) k ltac:(lia) ltac:(assumption)).
  pose proof (i_R st Hinv). pose proof (i_fwd st Hinv) as Hfwd.
  apply Inv_chan; try apply Hinv.
  - apply Forall_app. split; [exact Hfwd|]. constructor; [|constructor].
    unfold fitem_ok. cbn [f_d f_t f_pkt]. repeat split; try lia. exact Hnth.
  - rewrite map_app. cbn [map f_t]. apply sorted_app_tail; [apply Hinv|].
    intros x Hx. exact (fwd_t_le st _ x Hfwd Hx).
Qed.

Lemma dstep_good_fwd st o : Inv st -> good Inv (dstep st (DFwd o)).
Proof.
  intros Hinv.
  pose proof Hinv as [Hsnd HR Hrecv Hrs Hclen Hslen Hpre Hseq Hcont Hcinv Hfwd Hfs Hbwd Hbs Hpend].
  destruct (d_fwd st) as [|it rest] eqn:Efwd; [unfold dstep; rewrite Efwd; exact I|].
  pose proof (Forall_after_op _ o _ _ Hfwd) as Hfwd'.
  destruct (sorted_after_op f_t o _ _ Hfs) as [Hfs' Hmin].
  destruct (chop_eq_dec o Drop) as [->|Ho].
  { unfold dstep. rewrite Efwd. apply Inv_chan; assumption. }
  rewrite (dstep_fwd st it rest o Hinv Efwd Ho). cbn [good].
  destruct (Z.eqb_spec (f_d it) (d_R st)) as [HdR|_]; [|apply Inv_chan; try assumption; exact Hrecv].
  pose proof Hsnd as [Hn HBT Hw Hcs Hb Ht]. pose proof (Forall_inv Hfwd) as (Hi1 & Hi2 & Hi3 & Hi4 & Hi5 & Hi6).
  constructor; simpl_st; try assumption; try reflexivity.
  - (* i_R *) lia.
  - (* i_prefix *) replace (Z.to_nat (d_R st + 1)) with (S (Z.to_nat (d_R st))) by lia.
    rewrite (firstn_succ_nth _ _ (f_pkt it)), <- Hpre; [reflexivity|].
    unfold nth_sent in Hi6. rewrite HdR in Hi6. destruct (d_R st <? 0); [discriminate|exact Hi6].
  - (* i_fwd: what stays in the channel was sent under a top not below that of the head, which is above R *)
    rewrite Forall_forall in Hfwd'. apply Forall_forall. intros x Hx. pose proof (Hmin x Hx).
    apply (fitem_ok_mono st); simpl_st; try lia; try reflexivity; auto.
  - (* i_bwd *) eapply Forall_impl; [|exact Hbwd]. intros b Hbok. pose proof Hbok as ((H1 & H2) & _).
    apply (bitem_ok_mono st); simpl_st; try lia; try reflexivity. exact Hbok.
  - (* i_pend *) cbn [ctrl_ok]. split; [lia|]. rewrite Z.add_simpl_r, <- HdR. exact (Hseq _ _ Hi6).
Qed.

Lemma dstep_good_reply st : Inv st -> good Inv (dstep st DReply).
Proof.
  intros Hinv. unfold dstep. destruct (d_pend st) as [c|] eqn:Ep; [|exact I].
  pose proof (i_pend st Hinv) as Hpend. rewrite Ep in Hpend. pose proof (i_R st Hinv).
  apply Inv_chan; try apply Hinv; try exact I.
  - apply Forall_app. split; [apply Hinv|]. constructor; [|constructor]. split; [cbn [b_e]; lia|exact Hpend].
  - rewrite map_app. cbn [map b_e]. apply sorted_app_tail; [apply Hinv|].
    intros x Hx. exact (bwd_e_le st _ x (i_bwd st Hinv) Hx).
Qed.

Lemma dstep_good_bwd st o : Inv st -> good Inv (dstep st (DBwd o)).
Proof.
  intros Hinv.
  pose proof Hinv as [Hsnd HR Hrecv Hrs Hclen Hslen Hpre Hseq Hcont Hcinv Hfwd Hfs Hbwd Hbs Hpend].
  destruct (d_bwd st) as [|it rest] eqn:Ebwd; [unfold dstep; rewrite Ebwd; exact I|].
  pose proof (Forall_after_op _ o _ _ Hbwd) as Hbwd'.
  destruct (sorted_after_op b_e o _ _ Hbs) as [Hbs' Hmin].
  destruct (chop_eq_dec o Drop) as [->|Ho].
  { unfold dstep. rewrite Ebwd. apply Inv_chan; assumption. }
  rewrite (dstep_bwd st it rest o Hinv Ebwd Ho). cbn [good].
  destruct (Forall_inv Hbwd) as (He & _).
  constructor; simpl_st; try assumption.
  - (* i_sender *) apply (sender_ok_with_base _ _ (d_B st)); [exact Hsnd|lia].
  - (* i_R *) lia.
  - (* i_bwd *) rewrite Forall_forall in Hbwd'. apply Forall_forall. intros x Hx. pose proof (Hmin x Hx).
    pose proof (Hbwd' x Hx) as Hok. pose proof Hok as ((H1 & H2) & _).
    apply (bitem_ok_mono st); simpl_st; try lia; try reflexivity. exact Hok.
Qed.

Lemma dstep_good st ev : Inv st -> good Inv (dstep st ev).
Proof.
  destruct ev; [apply dstep_good_new|apply dstep_good_retx|apply dstep_good_fwd|apply dstep_good_reply|apply dstep_good_bwd].
Qed.

Lemma dstep_inv st ev st' : Inv st -> dstep st ev = DOk st' -> Inv st'.
Proof. intros Hinv. exact (good_ok _ _ _ (dstep_good st ev Hinv)). Qed.

Lemma dstep_no_panic st ev : Inv st -> dstep st ev <> DPanic.
Proof. intros Hinv. exact (good_no_panic _ _ (dstep_good st ev Hinv)). Qed.

(* what a step does to the histories, read off the text of dstep (no invariant needed) *)
Lemma addPacket_pkt q p q' p' :
  queue_addPacket q p = Ok (q', p') -> p' = set_PacketData_Seq p (queue_sequenceTop q).
Proof.
  unfold queue_addPacket, bind. cbv zeta.
  destruct (upd _ _ _); [|discriminate]. destruct (umod _ _); [|discriminate].
  intros H; inversion H; reflexivity.
Qed.

Lemma dstep_hist st ev st' : dstep st ev = DOk st' ->
  d_n st' = d_n st /\
  match ev with
  | DNew p =>
      let p' := set_PacketData_Seq p (queue_sequenceTop (d_q st)) in
      d_sent st' = d_sent st ++ [p'] /\ d_delivered st' = d_delivered st /\
      d_fwd st' = d_fwd st ++ [mk_fitem p' (d_T st) (d_T st + 1)]
  | DFwd o =>
      d_sent st' = d_sent st /\
      match d_fwd st with
      | [] => False
      | it :: _ => d_delivered st' = d_delivered st ++ (if d_R st <? d_R st' then [f_pkt it] else [])
      end /\
      (o = Drop -> d_delivered st' = d_delivered st)
  | _ => d_sent st' = d_sent st /\ d_delivered st' = d_delivered st
  end.
Proof.
  unfold dstep, lift. cbv zeta. intros H. destruct ev as [p|k|o| |o].
  - (* DNew *) destruct (queue_size _); [|discriminate]. destruct (negb _); [discriminate|].
    destruct (queue_addPacket _ p) as [[q' p']|] eqn:Eadd; [|discriminate].
    apply addPacket_pkt in Eadd. subst p'. injection H as <-. cbn. auto.
  - (* DRetx *) destruct (_ || _); [discriminate|]. destruct (idx _ k) as [[q|]|]; try discriminate.
    injection H as <-. auto.
  - (* DFwd *) destruct (d_fwd st) as [|it rest]; [discriminate|].
    assert (Hacc : (d_R st <? d_R st + 1) = true) by (apply Z.ltb_lt; lia).
    destruct o.
    3: { injection H as <-. cbn. rewrite Z.ltb_irrefl, app_nil_r. auto. }
    (* handed to the receiver, which accepts it (R moves) or not *)
    all: destruct (_ =? _); [destruct (umod _ _); [|discriminate]|]; injection H as <-; cbn;
      rewrite ?Hacc, ?Z.ltb_irrefl, ?app_nil_r; repeat split; discriminate.
  - (* DReply *) destruct (d_pend st); [|discriminate]. injection H as <-. auto.
  - (* DBwd *) destruct (d_bwd st) as [|it rest]; [discriminate|].
    destruct o.
    3: { injection H as <-. auto. }
    all: destruct (b_ctrl it);
      [destruct (queue_processACK _ _) as [[q' b]|]|destruct (queue_processNACK _ _) as [[[q' b] b2]|]];
      try discriminate; injection H as <-; auto.
Qed.

Lemma drun_good (P : dsys -> Prop) : (forall st ev, P st -> good P (dstep st ev)) ->
  forall evs st, P st -> good P (drun st evs).
Proof.
  intros Hstep. induction evs as [|ev evs IH]; intros st HP; cbn [drun]; [exact HP|].
  specialize (Hstep st ev HP). destruct (dstep st ev); [apply IH; exact Hstep|exact I|exact Hstep].
Qed.

Lemma drun_inv st evs st' : Inv st -> drun st evs = DOk st' -> Inv st'.
Proof. intros Hinv. exact (good_ok _ _ _ (drun_good Inv dstep_good evs st Hinv)). Qed.

Lemma drun_dinit_good n evs : 1 <= n <= 254 -> good (fun st => Inv st /\ d_n st = n) (drun (dinit n) evs).
Proof.
  intros Hn. apply drun_good; [|split; [exact (dinit_inv n Hn)|reflexivity]].
  intros st ev [Hinv <-]. pose proof (dstep_good st ev Hinv) as H.
  destruct (dstep st ev) as [st'| |] eqn:E; try exact H. split; [exact H|exact (proj1 (dstep_hist _ _ _ E))].
Qed.

Lemma drun_dinit n evs st : 1 <= n <= 254 -> drun (dinit n) evs = DOk st -> Inv st /\ d_n st = n.
Proof. intros Hn. exact (good_ok _ _ _ (drun_dinit_good n evs Hn)). Qed.

Lemma Inv_prefix st : Inv st -> d_delivered st = firstn (length (d_delivered st)) (d_sent st).
Proof.
  intros Hinv. pose proof (i_prefix st Hinv) as Hpre. pose proof (i_R st Hinv) as HR.
  pose proof (i_sentlen st Hinv) as Hslen. pose proof (so_BT _ _ _ _ (i_sender st Hinv)) as HBT.
  rewrite Hpre at 2. rewrite firstn_length, Nat.min_l by (unfold len in Hslen; lia). exact Hpre.
Qed.

(* the window bound in the code's own terms, in every state that satisfies the invariant *)
Lemma Inv_window st : Inv st ->
  0 <= d_T st - d_B st <= d_n st /\ queue_size (d_q st) = Ok (d_T st - d_B st) /\
  0 <= queue_sequenceBase (d_q st) < d_n st + 1 /\ 0 <= queue_sequenceTop (d_q st) < d_n st + 1 /\
  queueCfg_s (queue_cfg (d_q st)) = d_n st + 1.
Proof.
  intros Hinv. pose proof (i_sender st Hinv) as Hsnd. pose proof (size_ghost _ _ _ _ Hsnd) as Hsz.
  destruct (sender_ok_window Hsnd) as [_ Hcs -> -> Hb Ht]. destruct Hsnd as [_ HBT Hw _ _ _].
  repeat split; assumption || lia.
Qed.

(* The symbolic Noise model (Model/Sym.v) seen through its interface: the term algebra, the AEAD step,
   and an act = version byte, tokens, payload seals.  Everything later is proved from the statements
   here, on party records whose symmetric state stays folded.  Key, nonce and chaining key of such a state
   are computed where they are compared; its handshake hash hd never is (it contains every earlier seal,
   which contains the hash before it). *)
From Coq Require Import ZArith List Bool Lia.
From LNC Require Import Sym.
Import ListNotations.
Open Scope Z_scope.

Lemma zl_eqb_eq : forall a b, zl_eqb a b = true <-> a = b.
Proof.
  induction a as [|x a IH]; destruct b as [|y b]; cbn; try (split; congruence).
  rewrite andb_true_iff, Z.eqb_eq, IH. split; [intros [-> ->]; reflexivity | intro H; injection H; auto].
Qed.

Lemma term_eqb_refl : forall a, term_eqb a a = true.
Proof.
  induction a; simpl; rewrite ?IHa, ?IHa1, ?IHa2, ?IHa3, ?Z.eqb_refl; simpl; auto.
  - apply zl_eqb_eq; reflexivity.
  - destruct kk; reflexivity.
Qed.

Lemma term_eqb_true : forall a b, term_eqb a b = true -> a = b.
Proof.
  induction a; intros [] H; try discriminate H; cbn in H;
    rewrite ?andb_true_iff in H; decompose [and] H; f_equal; auto.
  - apply zl_eqb_eq; assumption.
  - apply Z.eqb_eq; assumption.
  - apply Z.eqb_eq; assumption.
  - apply Bool.eqb_prop; assumption.
Qed.

Theorem term_eqb_eq : forall a b, term_eqb a b = true <-> a = b.
Proof.
  split; [apply term_eqb_true | intros ->; apply term_eqb_refl].
Qed.

Lemma term_eqb_neq : forall a b, term_eqb a b = false <-> a <> b.
Proof.
  intros a b. rewrite <- term_eqb_eq. destruct (term_eqb a b); split; congruence.
Qed.

Lemma unmask_mask : forall p pw, unmask (Mask p pw) pw = p.
Proof. intros. unfold unmask. rewrite term_eqb_refl. reflexivity. Qed.

Lemma unmask_mask_neq : forall p pw pw', pw <> pw' -> unmask (Mask p pw) pw' = Unmask (Mask p pw) pw'.
Proof.
  intros p pw pw' H. unfold unmask. destruct (term_eqb pw' pw) eqn:E; auto.
  apply term_eqb_true in E. congruence.
Qed.

Lemma dh_priv_pub : forall a b,
  dh (Priv a) (Pub (Priv b)) = DH (Priv (Z.min a b)) (Priv (Z.max a b)).
Proof.
  intros. unfold dh. destruct (Z.leb_spec a b).
  - rewrite Z.min_l, Z.max_r by lia. reflexivity.
  - rewrite Z.min_r, Z.max_l by lia. reflexivity.
Qed.

Lemma dh_comm : forall a b, dh (Priv a) (Pub (Priv b)) = dh (Priv b) (Pub (Priv a)).
Proof. intros. rewrite !dh_priv_pub, Z.min_comm, Z.max_comm. reflexivity. Qed.

Theorem dh_normal_form : forall a b a' b',
  dh (Priv a) (Pub (Priv b)) = dh (Priv a') (Pub (Priv b')) ->
  (a = a' /\ b = b') \/ (a = b' /\ b = a').
Proof.
  intros a b a' b' H. rewrite !dh_priv_pub in H. inversion H. lia.
Qed.

Lemma dh_is_DH_inv : forall x pt u v, dh x pt = DH u v -> exists a b, x = Priv a /\ pt = Pub (Priv b).
Proof.
  intros x pt u v H. unfold dh in H.
  destruct x; try discriminate. destruct pt; try discriminate. destruct pt; try discriminate.
  eauto.
Qed.

Lemma dh_eq_priv_inv : forall a b x pt,
  dh (Priv a) (Pub (Priv b)) = dh x pt -> exists a' b', x = Priv a' /\ pt = Pub (Priv b').
Proof.
  intros a b x pt H. rewrite dh_priv_pub in H. symmetry in H. eapply dh_is_DH_inv; eauto.
Qed.

(* samples of the free algebra; `injection` and `discriminate` give all *)
Lemma Seal_inj : forall k n ad p k' n' ad' p',
  Seal k n ad p = Seal k' n' ad' p' -> k = k' /\ n = n' /\ ad = ad' /\ p = p'.
Proof. intros. inversion H; auto. Qed.
Lemma Hash_inj : forall h x h' x', Hash h x = Hash h' x' -> h = h' /\ x = x'.
Proof. intros. inversion H; auto. Qed.
Lemma Hkdf2_inj : forall h x h' x', Hkdf2 h x = Hkdf2 h' x' -> h = h' /\ x = x'.
Proof. intros. inversion H; auto. Qed.
Lemma Hkdf1_inj : forall h x h' x', Hkdf1 h x = Hkdf1 h' x' -> h = h' /\ x = x'.
Proof. intros. inversion H; auto. Qed.
Lemma Pub_inj : forall a b, Pub a = Pub b -> a = b.
Proof. intros. inversion H; auto. Qed.
Lemma Priv_inj : forall a b, Priv a = Priv b -> a = b.
Proof. intros. inversion H; auto. Qed.
Lemma Hkdf1_Hkdf2_distinct : forall a b c d, Hkdf1 a b <> Hkdf2 c d.
Proof. intros; discriminate. Qed.
Lemma Hkdf2_ZeroKey_distinct : forall a b, Hkdf2 a b <> ZeroKey.
Proof. intros; discriminate. Qed.
Lemma Unmask_Pub_distinct : forall a b c, Unmask a b <> Pub c.
Proof. intros; discriminate. Qed.

Definition seal_of (s : sym) (x : term) : term := Seal (key s) (nonce s) (hd s) x.
Definition after_seal (s : sym) (x : term) : sym :=
  mk_sym (Hash (hd s) (seal_of s x)) (ck s) (key s) (nonce s + 1).

Lemma encrypt_eq : forall s x, encrypt_and_hash s x = (after_seal s x, seal_of s x).
Proof. reflexivity. Qed.

Lemma decrypt_seal_of : forall s x, decrypt_and_hash s (seal_of s x) = Some (after_seal s x, x).
Proof. intros. unfold decrypt_and_hash, seal_of. rewrite !term_eqb_refl, Z.eqb_refl. reflexivity. Qed.

Lemma decrypt_spec : forall s c s' x,
  decrypt_and_hash s c = Some (s', x) <-> c = seal_of s x /\ s' = after_seal s x.
Proof.
  intros s c s' x. split.
  - unfold decrypt_and_hash. destruct c; try discriminate.
    destruct (term_eqb c1 (key s) && (n =? nonce s) && term_eqb c2 (hd s)) eqn:E; [|discriminate].
    apply andb_true_iff in E. destruct E as [E E3]. apply andb_true_iff in E. destruct E as [E1 E2].
    apply term_eqb_true in E1, E3. apply Z.eqb_eq in E2. subst. intro H. injection H as <- <-. auto.
  - intros [-> ->]. apply decrypt_seal_of.
Qed.

Lemma decrypt_some_iff : forall s k n ad p,
  decrypt_and_hash s (Seal k n ad p) <> None <-> (k = key s /\ n = nonce s /\ ad = hd s).
Proof.
  intros; split.
  - destruct (decrypt_and_hash s (Seal k n ad p)) as [[s' q]|] eqn:E; [|congruence].
    intros _. apply decrypt_spec in E. destruct E as [E _]. injection E. auto.
  - intros (-> & -> & ->). fold (seal_of s p). rewrite decrypt_seal_of. discriminate.
Qed.

Lemma seal_of_inj : forall s x s' x',
  seal_of s x = seal_of s' x' -> key s = key s' /\ nonce s = nonce s' /\ hd s = hd s' /\ x = x'.
Proof. unfold seal_of. intros s x s' x' H. injection H. auto. Qed.

Lemma hd_mix_hash : forall s x, hd (mix_hash s x) = Hash (hd s) x.
Proof. reflexivity. Qed.
Lemma hd_mix_key : forall s k, hd (mix_key s k) = hd s.
Proof. reflexivity. Qed.
Lemma hd_after_seal : forall s x, hd (after_seal s x) = Hash (hd s) (seal_of s x).
Proof. reflexivity. Qed.
#[export] Hint Rewrite hd_mix_hash hd_mix_key hd_after_seal : hdhash.

(* H : match decrypt_and_hash s c with Some (s', x) => _ | None => None end = Some _ :
   c becomes seal_of s x and s' becomes after_seal s x *)
Tactic Notation "open_seal" hyp(H) "as" ident(x) :=
  match type of H with context [decrypt_and_hash ?s ?c] =>
    let D := fresh "D" in let s' := fresh "s'" in
    destruct (decrypt_and_hash s c) as [[s' x]|] eqn:D; [|discriminate H];
    apply decrypt_spec in D; destruct D as [-> ->]
  end.

(* injection and inversion simplify the equations they produce; these stay as they are *)
Arguments dh : simpl never.
Arguments unmask : simpl never.
Arguments term_eqb : simpl never.
Arguments decrypt_and_hash : simpl never.
Arguments mix_hash : simpl never.
Arguments mix_key : simpl never.
Arguments after_seal : simpl never.
Arguments seal_of : simpl never.

(* what a writer at version v in state s appends after the tokens of an act, and its state afterwards;
   only act 2 carries a payload, in the length-prefixed form from version 1 on *)
Definition act2_seals (v : Z) (pl : term) (s : sym) : list term :=
  if v =? 0 then [seal_of s (V0Pad pl)]
  else [seal_of s (Be32Len pl); seal_of (after_seal s (Be32Len pl)) pl].
Definition act2_after (v : Z) (pl : term) (s : sym) : sym :=
  if v =? 0 then after_seal s (V0Pad pl) else after_seal (after_seal s (Be32Len pl)) pl.
Definition payload_seals (v act : Z) (pl : term) (s : sym) : list term :=
  if act =? 2 then act2_seals v pl s else [seal_of s Empty].
Definition payload_after (v act : Z) (pl : term) (s : sym) : sym :=
  if act =? 2 then act2_after v pl s else after_seal s Empty.
Arguments act2_seals : simpl never.
Arguments act2_after : simpl never.

(* the version tests of write_act and read_act *)
Lemma version_cases : forall v,
  (v = 0 /\ (v =? 0) = true) \/
  (1 <= v <= 2 /\ (v =? 0) = false /\ (v =? 1) || (v =? 2) = true) \/
  (~ 0 <= v <= 2 /\ (v =? 0) = false /\ (v =? 1) || (v =? 2) = false).
Proof.
  intro v. destruct (Z.eqb_spec v 0), (Z.eqb_spec v 1), (Z.eqb_spec v 2); cbn [orb]; lia.
Qed.

(* 498 is act2_payload_max_v0, written out as in the statements of C03 and C04, where lia can use it *)
Lemma write_act_spec : forall p ts act p' m,
  write_act p ts act = Some (p', m) <->
  exists p1 out,
    write_tokens p ts [Lit [p_version p]] = Some (p1, out) /\
    0 <= p_version p <= 2 /\ (act = 2 -> p_version p = 0 -> p_payload_len p <= 498) /\
    p' = upd_sym p1 (payload_after (p_version p) act (p_payload p) (p_sym p1)) /\
    m = out ++ payload_seals (p_version p) act (p_payload p) (p_sym p1).
Proof.
  intros p ts act p' m.
  unfold write_act, payload_seals, payload_after, act2_seals, act2_after, act2_payload_max_v0.
  destruct (write_tokens p ts [Lit [p_version p]]) as [[p1 out]|].
  2:{ split; [discriminate | intros (? & ? & ? & _); discriminate]. }
  rewrite !encrypt_eq.
  destruct (version_cases (p_version p)) as [(V & ->) | [(V & -> & ->) | (V & -> & ->)]],
           (Z.eqb_spec act 2) as [A|A]; try destruct (Z.ltb_spec 498 (p_payload_len p)) as [L|L];
    (split; [ intro H; try discriminate H; injection H as <- <-; exists p1, out; repeat split; auto; lia
            | intros (q & o & E & V' & PL & -> & ->); injection E as <- <-; try reflexivity; lia ]).
Qed.

(* vok and p0 of read_act *)
Definition accepts (p : party) (act v : Z) : bool :=
  if (act =? 1) || (act =? 2) then (p_min p <=? v) && (v <=? p_max p) else v =? p_version p.
Definition adopt (p : party) (act v : Z) : party :=
  if ((act =? 1) || (act =? 2)) && p_init p then upd_version p v else p.

Lemma read_act_spec : forall p ts act fields p',
  read_act p ts act fields = Some p' <->
  exists v fs p1 rest x,
    fields = Lit [v] :: fs /\ accepts p act v = true /\ 0 <= v <= 2 /\
    read_tokens (adopt p act v) ts fs = Some (p1, rest) /\
    rest = payload_seals v act x (p_sym p1) /\
    let p2 := upd_sym p1 (payload_after v act x (p_sym p1)) in
    p' = if act =? 2 then upd_received p2 (Some x) else p2.
Proof.
  intros p ts act fields p'. unfold payload_seals, payload_after, act2_seals, act2_after. split.
  - unfold read_act. destruct fields as [|[[|v [|]]| | | | | | | | | | | | | | | | |] fs]; try discriminate.
    fold (accepts p act v) (adopt p act v).
    destruct (accepts p act v) eqn:VOK; [|discriminate]. cbn [negb].
    destruct (read_tokens (adopt p act v) ts fs) as [[p1 rest]|] eqn:RT; [|discriminate].
    intro H. exists v, fs, p1, rest.
    destruct (version_cases v) as [(V & E0) | [(V & E0 & E12) | (V & E0 & E12)]]; rewrite E0, ?E12 in *;
      [ | | discriminate H]; destruct (Z.eqb_spec act 2) as [A|A].
    + destruct rest as [|c [|]]; try discriminate. open_seal H as y.
      destruct y as [| | | | | | | | | | | |x| | | | |]; try discriminate.   (* V0Pad x *)
      injection H as <-. exists x. repeat split; auto; lia.
    + destruct rest as [|c [|]]; try discriminate. open_seal H as y. destruct y; try discriminate.
      injection H as <-. exists Empty. repeat split; auto; lia.
    + destruct rest as [|c1 [|c2 [|]]]; try discriminate. open_seal H as y.
      destruct y as [| | | | | | | | | | | | |x| | | |]; try discriminate.   (* Be32Len x *)
      open_seal H as pl. destruct (term_eqb pl x) eqn:E; [|discriminate]. apply term_eqb_true in E. subst pl.
      injection H as <-. exists x. repeat split; auto; lia.
    + destruct rest as [|c [|]]; try discriminate. open_seal H as y. destruct y; try discriminate.
      injection H as <-. exists Empty. repeat split; auto; lia.
  - intros (v & fs & p1 & rest & x & -> & VOK & V & RT & -> & ->).
    unfold read_act. fold (accepts p act v) (adopt p act v). rewrite VOK, RT. cbn [negb].
    destruct (version_cases v) as [(V' & E0) | [(V' & E0 & E12) | (V' & _)]]; [ | | contradiction];
      rewrite E0, ?E12; destruct (Z.eqb_spec act 2) as [A|A];
      rewrite !decrypt_seal_of, ?term_eqb_refl; reflexivity.
Qed.

Lemma write_act_ok : forall p ts act p1 out,
  write_tokens p ts [Lit [p_version p]] = Some (p1, out) ->
  0 <= p_version p <= 2 -> (act = 2 -> p_version p = 0 -> p_payload_len p <= 498) ->
  write_act p ts act = Some (upd_sym p1 (payload_after (p_version p) act (p_payload p) (p_sym p1)),
                             out ++ payload_seals (p_version p) act (p_payload p) (p_sym p1)).
Proof. intros. apply write_act_spec. eauto 10. Qed.

Lemma read_act_ok : forall p ts act v fs p1 rest x,
  accepts p act v = true -> 0 <= v <= 2 ->
  read_tokens (adopt p act v) ts fs = Some (p1, rest) ->
  rest = payload_seals v act x (p_sym p1) ->
  let p2 := upd_sym p1 (payload_after v act x (p_sym p1)) in
  read_act p ts act (Lit [v] :: fs) = Some (if act =? 2 then upd_received p2 (Some x) else p2).
Proof. intros. apply read_act_spec. exists v, fs, p1, rest, x. auto 10. Qed.

Lemma read_act_refused : forall p ts act v fs, accepts p act v = false -> read_act p ts act (Lit [v] :: fs) = None.
Proof. intros p ts act v fs H. unfold read_act. fold (accepts p act v). rewrite H. reflexivity. Qed.

Lemma write_act_v0_big : forall p ts, p_version p = 0 -> 498 < p_payload_len p -> write_act p ts 2 = None.
Proof.
  intros p ts V L. destruct (write_act p ts 2) as [[p' m]|] eqn:W; [|reflexivity].
  apply write_act_spec in W. destruct W as (_ & _ & _ & _ & PL & _). specialize (PL eq_refl V). lia.
Qed.

(* read_tokens from the accepting side: what the fields were, in the reader's own terms, and how it goes on *)
Fixpoint reads (p : party) (ts : list token) (fs : list term) (r : party * list term) : Prop :=
  match ts with
  | [] => (p, fs) = r
  | Te :: ts => exists f fs', fs = f :: fs' /\ is_point f = true /\
      reads (upd_sym (upd_re p (Some f)) (mix_hash (p_sym p) f)) ts fs' r
  | Tme :: ts => exists f fs', fs = f :: fs' /\ is_point f = true /\
      let e := unmask f (p_pw p) in reads (upd_sym (upd_re p (Some e)) (mix_hash (p_sym p) e)) ts fs' r
  | Ts :: ts => exists x fs', fs = seal_of (p_sym p) x :: fs' /\ is_point x = true /\
      reads (upd_sym (upd_rs p (Some x)) (after_seal (p_sym p) x)) ts fs' r
  | t :: ts => match dh_token p t with
               | Some k => reads (upd_sym p (mix_key (p_sym p) k)) ts fs r
               | None => False
               end
  end.

Lemma read_tokens_reads : forall ts p fs r, read_tokens p ts fs = Some r -> reads p ts fs r.
Proof.
  induction ts as [|t ts IH]; intros p fs r H; cbn [read_tokens] in H.
  - injection H as <-. reflexivity.
  - destruct t; cbn [reads];
      try (destruct (dh_token p _) as [k|]; [exact (IH _ _ _ H) | discriminate]);
      destruct fs as [|f fs']; try discriminate.
    + destruct (is_point f) eqn:IP; [eauto 6 | discriminate].
    + destruct (is_point f) eqn:IP; [eauto 6 | discriminate].
    + open_seal H as x. destruct (is_point x) eqn:IP; [eauto 6 | discriminate].
Qed.

Definition fixed_part (p : party) :=
  (p_init p, p_kk p, p_static p, p_eph p, p_pw p, p_payload p, p_payload_len p, p_min p, p_max p).

Lemma write_tokens_fixed : forall ts p out p' out',
  write_tokens p ts out = Some (p', out') ->
  fixed_part p' = fixed_part p /\ p_version p' = p_version p /\ exists o, out' = out ++ o.
Proof.
  induction ts as [|t ts IH]; intros p out p' out' H; cbn [write_tokens] in H.
  - injection H as <- <-. repeat split. exists []. symmetry; apply app_nil_r.
  - destruct t; try (destruct (dh_token p _); [|discriminate]);
      apply IH in H; destruct H as (F & V & o & ->); repeat split; try assumption;
      rewrite <- ?app_assoc; eauto.
Qed.

Lemma reads_fixed : forall ts p fs p' rest,
  reads p ts fs (p', rest) -> fixed_part p' = fixed_part p /\ p_version p' = p_version p.
Proof.
  induction ts as [|t ts IH]; intros p fs p' rest H; cbn [reads] in H.
  - injection H as <- _. split; reflexivity.
  - destruct t;
      [ destruct H as (f & fs' & _ & _ & H) | destruct H as (f & fs' & _ & _ & H)
      | destruct H as (f & fs' & _ & _ & H) | destruct (dh_token p _); [|contradiction] ..];
      apply IH in H; exact H.
Qed.

Lemma write_act_fixed : forall p ts act p' m,
  write_act p ts act = Some (p', m) ->
  fixed_part p' = fixed_part p /\ p_version p' = p_version p /\ hd_error m = Some (Lit [p_version p]).
Proof.
  intros p ts act p' m H. apply write_act_spec in H.
  destruct H as (p1 & out & W & _ & _ & -> & ->).
  apply write_tokens_fixed in W. destruct W as (F & V & o & ->). auto.
Qed.

Lemma read_act_fixed : forall p ts act fields p',
  read_act p ts act fields = Some p' ->
  exists v, hd_error fields = Some (Lit [v]) /\ fixed_part p' = fixed_part p /\
    p_version p' = (if ((act =? 1) || (act =? 2)) && p_init p then v else p_version p).
Proof.
  intros p ts act fields p' H. apply read_act_spec in H.
  destruct H as (v & fs & p1 & rest & x & -> & _ & _ & RT & _ & ->).
  exists v. apply read_tokens_reads, reads_fixed in RT. destruct RT as (F & V).
  replace (fixed_part p) with (fixed_part (adopt p act v)) by (unfold adopt; destruct (_ && _); reflexivity).
  split; [reflexivity|].
  split; [destruct (act =? 2); exact F|].
  transitivity (p_version p1); [destruct (act =? 2); reflexivity|].
  rewrite V. unfold adopt. destruct (_ && _); reflexivity.
Qed.

Definition sym0 (kk : bool) : sym := mix_hash (mk_sym (ProtoName kk) (ProtoName kk) ZeroKey 0) Prologue.

Lemma new_party_xx : forall init st eph rs pw pl plen mn mx,
  new_party init false st eph rs pw pl plen mn mx =
  Some (mk_party init false st eph rs None pw pl plen None mn mx (if init then mn else mx) (sym0 false)).
Proof. reflexivity. Qed.

Lemma new_party_kk : forall init st eph r pw pl plen mn mx,
  new_party init true st eph (Some r) pw pl plen mn mx =
  if mx <? 2 then None else
  let mn' := if mn <? 2 then 2 else mn in
  Some (mk_party init true st eph (Some r) None pw pl plen None mn' mx (if init then mn' else mx)
          (mix_hash (mix_hash (sym0 true) (if init then Pub st else r)) (if init then r else Pub st))).
Proof. reflexivity. Qed.

(* XX ends with the responder's reading and KK with the initiator's: if that party completed, every act
   was accepted *)
Lemma run_xx_completed : forall pi pr adv sr,
  r_resp (run_xx pi pr adv) = Completed sr ->
  exists i1 m1 r1 r2 m2 i2 i3 m3 r3,
    write_act pi [Tme] 1 = Some (i1, m1) /\
    read_act pr [Tme] 1 (adv 1 m1) = Some r1 /\
    write_act r1 [Te; Tee; Ts; Tes] 2 = Some (r2, m2) /\
    read_act i1 [Te; Tee; Ts; Tes] 2 (adv 2 m2) = Some i2 /\
    write_act i2 [Ts; Tse] 3 = Some (i3, m3) /\
    read_act r2 [Ts; Tse] 3 (adv 3 m3) = Some r3 /\
    run_xx pi pr adv = mk_result (Completed (finish i3)) (Completed (finish r3)) [m1; m2; m3] [m2].
Proof.
  intros pi pr adv sr. unfold run_xx.
  destruct (write_act pi [Tme] 1) as [[i1 m1]|] eqn:E1; [|discriminate].
  destruct (read_act pr [Tme] 1 (adv 1 m1)) as [r1|] eqn:E2; [|discriminate].
  destruct (write_act r1 [Te; Tee; Ts; Tes] 2) as [[r2 m2]|] eqn:E3; [|discriminate].
  destruct (read_act i1 [Te; Tee; Ts; Tes] 2 (adv 2 m2)) as [i2|] eqn:E4; [|discriminate].
  destruct (write_act i2 [Ts; Tse] 3) as [[i3 m3]|] eqn:E5; [|discriminate].
  destruct (read_act r2 [Ts; Tse] 3 (adv 3 m3)) as [r3|] eqn:E6; [|discriminate].
  intros _. exists i1, m1, r1, r2, m2, i2, i3, m3, r3. auto 10.
Qed.

Lemma run_kk_completed : forall pi pr adv si,
  r_init (run_kk pi pr adv) = Completed si ->
  exists i1 m1 r1 r2 m2 i2,
    write_act pi [Te; Tes; Tss] 1 = Some (i1, m1) /\
    read_act pr [Te; Tes; Tss] 1 (adv 1 m1) = Some r1 /\
    write_act r1 [Te; Tee; Tse] 2 = Some (r2, m2) /\
    read_act i1 [Te; Tee; Tse] 2 (adv 2 m2) = Some i2 /\
    run_kk pi pr adv = mk_result (Completed (finish i2)) (Completed (finish r2)) [m1; m2] [m2].
Proof.
  intros pi pr adv si. unfold run_kk.
  destruct (write_act pi [Te; Tes; Tss] 1) as [[i1 m1]|] eqn:E1; [|discriminate].
  destruct (read_act pr [Te; Tes; Tss] 1 (adv 1 m1)) as [r1|] eqn:E2; [|discriminate].
  destruct (write_act r1 [Te; Tee; Tse] 2) as [[r2 m2]|] eqn:E3; [|discriminate].
  destruct (read_act i1 [Te; Tee; Tse] 2 (adv 2 m2)) as [i2|] eqn:E4; [|discriminate].
  intros _. exists i1, m1, r1, r2, m2, i2. auto 10.
Qed.

Lemma run_completed : forall c adv,
  completed (r_init (run c adv)) || completed (r_resp (run c adv)) = true ->
  exists pi pr, mk_init c = Some pi /\ mk_resp c = Some pr /\
    run c adv = (if c_kk c then run_kk pi pr adv else run_xx pi pr adv).
Proof.
  intros c adv. unfold run, run_pair.
  destruct (mk_init c) as [pi|], (mk_resp c) as [pr|]; try discriminate.
  intros _. exists pi, pr. auto.
Qed.

(* Token processing and field access on party records, by unfolding exactly these; the symmetric-state
   operations, the group operations, the version tests on variables (act2_seals, act2_after, accepts) and the
   comparison of terms stay folded.  Z.eqb is here for the act numbers, which are literals.  The list stands
   twice (8.16 takes no clause as a tactic argument): the two copies must stay the same. *)
Ltac pnorm :=
  lazy beta iota zeta delta
    [write_tokens read_tokens reads dh_token dh_opt is_point adopt payload_seals payload_after finish
     p_init p_kk p_static p_eph p_rs p_re p_pw p_payload p_payload_len p_received p_min p_max p_version p_sym
     upd_sym upd_rs upd_re upd_received upd_version
     s_send s_recv s_version s_remote s_auth s_set_remote
     app Z.eqb Pos.eqb andb orb negb].
Tactic Notation "pnorm" "in" hyp(H) :=
  lazy beta iota zeta delta
    [write_tokens read_tokens reads dh_token dh_opt is_point adopt payload_seals payload_after finish
     p_init p_kk p_static p_eph p_rs p_re p_pw p_payload p_payload_len p_received p_min p_max p_version p_sym
     upd_sym upd_rs upd_re upd_received upd_version
     s_send s_recv s_version s_remote s_auth s_set_remote
     app Z.eqb Pos.eqb andb orb negb] in H.

(* Faithful runs between matching parties: exactly when they complete, and what the two sessions then
   hold (C03, C04). *)
From Coq Require Import ZArith Bool Lia.
From LNC Require Import Sym SymLemmas SymProofs.
Open Scope Z_scope.

Definition agree (v ki kr : Z) (pl : term) (a b : session) : Prop :=
  s_send a = s_recv b /\ s_recv a = s_send b /\ s_version a = v /\ s_version b = v /\
  s_remote a = Some (Pub (Priv kr)) /\ s_remote b = Some (Pub (Priv ki)) /\
  s_auth a = Some pl.

(* Two parties that start from the same symmetric state, with scalars for keys, the same pass phrase and
   (KK) each other's static key, whatever else they hold.  The run is followed act by act; the versions vI
   (the initiator's offer) and vR (the responder's answer) stay variables, and so does the format of the
   act-2 payload: the reader opens act2_seals v x s for the v and s it has arrived at, which is what the
   writer appended. *)
Section Faithful.
Variables (si sr ei er : Z) (pw pli plr : term) (leni lenr : Z) (rei rer rcvi rcvr : option term).
Variables (mni mxi vI mnr mxr vR : Z) (s : sym).
Hypothesis Vi : 0 <= vI <= 2.
Hypothesis Vr : 0 <= vR <= 2.

(* the tokens of one act, written or read; DH results are turned initiator's scalar first.  (On a term
   dh (Priv sr) (Pub (Priv er)) the two dh_comm rules would undo each other for ever; no token of XX or KK
   makes one.) *)
Ltac tokens :=
  repeat (pnorm; rewrite ?encrypt_eq, ?unmask_mask, ?(dh_comm er), ?(dh_comm sr), ?decrypt_seal_of).

Definition fits : bool := negb (vR =? 0) || (lenr <=? 498).

Lemma fits_spec : if fits then vR = 0 -> lenr <= 498 else vR = 0 /\ 498 < lenr.
Proof. unfold fits. destruct (Z.eqb_spec vR 0), (Z.leb_spec lenr 498); cbn; auto; lia. Qed.

(* The run is named R and computed in the hypothesis R = run_xx ..: once, not at each of its occurrences under
   the `if`; where an act is refused, `subst R` puts in what has been reached.  A caller reads the parties off
   its own equation (`apply xx_faithful in H`). *)
Lemma xx_faithful : forall rsi rsr R,
  R = run_xx (mk_party true false (Priv si) (Priv ei) rsi rei pw pli leni rcvi mni mxi vI s)
             (mk_party false false (Priv sr) (Priv er) rsr rer pw plr lenr rcvr mnr mxr vR s) faithful ->
  if (mnr <=? vI) && (vI <=? mxr) && fits && ((mni <=? vR) && (vR <=? mxi))
  then exists a b, r_init R = Completed a /\ r_resp R = Completed b /\ agree vR si sr plr a b
  else completed (r_init R) = false /\ completed (r_resp R) = false.
Proof.
  intros rsi rsr R E. unfold run_xx, faithful in E.
  set (ok1 := (mnr <=? vI) && (vI <=? mxr)). set (ok2 := (mni <=? vR) && (vR <=? mxi)).
  erewrite write_act_ok in E; [ | tokens; reflexivity | exact Vi | discriminate ].
  pnorm in E.
  destruct ok1 eqn:A1; [|rewrite read_act_refused in E by exact A1; subst R; split; reflexivity].
  (* x of read_act_ok is the payload that act 2 delivers: for acts 1 and 3 no premise determines it *)
  erewrite read_act_ok with (x := Empty) in E; [ | exact A1 | exact Vi | tokens; reflexivity | reflexivity ].
  pnorm in E.
  pose proof fits_spec as L. destruct fits; [|rewrite write_act_v0_big in E by apply L; subst R; split; reflexivity].
  erewrite write_act_ok in E; [ | tokens; reflexivity | exact Vr | intros _; exact L ].
  pnorm in E.
  destruct ok2 eqn:A2; [|rewrite read_act_refused in E by exact A2; subst R; split; reflexivity].
  erewrite read_act_ok in E; [ | exact A2 | exact Vr | tokens; reflexivity | reflexivity ].
  pnorm in E.
  erewrite write_act_ok in E; [ | tokens; reflexivity | exact Vr | discriminate ].
  pnorm in E.
  erewrite read_act_ok with (x := Empty) in E; [ | apply Z.eqb_refl | exact Vr | tokens; reflexivity | reflexivity ].
  subst R. do 2 eexists. split; [reflexivity|]. split; [reflexivity|]. pnorm. repeat split.
Qed.

Lemma kk_faithful : forall pw' R,
  R = run_kk (mk_party true true (Priv si) (Priv ei) (Some (Pub (Priv sr))) rei pw pli leni rcvi mni mxi vI s)
             (mk_party false true (Priv sr) (Priv er) (Some (Pub (Priv si))) rer pw' plr lenr rcvr mnr mxr vR s)
             faithful ->
  if (mnr <=? vI) && (vI <=? mxr) && fits && ((mni <=? vR) && (vR <=? mxi))
  then exists a b, r_init R = Completed a /\ r_resp R = Completed b /\ agree vR si sr plr a b
  else completed (r_init R) = false.
Proof.
  intros pw' R E. unfold run_kk, faithful in E.
  set (ok1 := (mnr <=? vI) && (vI <=? mxr)). set (ok2 := (mni <=? vR) && (vR <=? mxi)).
  erewrite write_act_ok in E; [ | tokens; reflexivity | exact Vi | discriminate ].
  pnorm in E.
  destruct ok1 eqn:A1; [|rewrite read_act_refused in E by exact A1; subst R; reflexivity].
  erewrite read_act_ok with (x := Empty) in E; [ | exact A1 | exact Vi | tokens; reflexivity | reflexivity ].
  pnorm in E.
  pose proof fits_spec as L. destruct fits; [|rewrite write_act_v0_big in E by apply L; subst R; reflexivity].
  erewrite write_act_ok in E; [ | tokens; reflexivity | exact Vr | intros _; exact L ].
  pnorm in E.
  destruct ok2 eqn:A2; [|rewrite read_act_refused in E by exact A2; subst R; reflexivity].
  erewrite read_act_ok in E; [ | exact A2 | exact Vr | tokens; reflexivity | reflexivity ].
  subst R. do 2 eexists. split; [reflexivity|]. split; [reflexivity|]. pnorm. repeat split.
Qed.
End Faithful.

(* the exact completion condition of a faithful run between matching parties *)
Definition okb (c : cfg) : bool :=
  let mi := if c_kk c && (c_mini c <? 2) then 2 else c_mini c in
  let mr := if c_kk c && (c_minr c <? 2) then 2 else c_minr c in
  (if c_kk c then negb (c_maxi c <? 2) && negb (c_maxr c <? 2) else true) &&
  ((mr <=? mi) && (mi <=? c_maxr c)) && (negb (c_maxr c =? 0) || (c_plen c <=? 498)) &&
  ((mi <=? c_maxr c) && (c_maxr c <=? c_maxi c)).

Definition matching (c : cfg) : Prop :=
  (c_kk c = false -> c_pwi c = c_pwr c) /\
  (c_kk c = true -> c_exp_i c = Pub (Priv (c_sr c)) /\ c_exp_r c = Pub (Priv (c_si c))).

Theorem honest_outcome : forall c, vr c -> matching c ->
  if okb c
  then exists a b, r_init (run c faithful) = Completed a /\ r_resp (run c faithful) = Completed b /\
                   agree (c_maxr c) (c_si c) (c_sr c) (c_payload c) a b
  else completed (r_init (run c faithful)) = false /\
       (c_kk c = false -> completed (r_resp (run c faithful)) = false).
Proof.
  intros [kk si sr ei er pwi pwr xi xr pl plen mini maxi minr maxr] (V1 & V2 & V3 & V4) [M1 M2].
  unfold okb, run, run_pair, mk_init, mk_resp.
  cbn [c_kk c_si c_sr c_ei c_er c_pwi c_pwr c_exp_i c_exp_r c_payload c_plen c_mini c_maxi c_minr c_maxr] in *.
  destruct kk; cbn [andb].
  - destruct (M2 eq_refl) as [-> ->]. rewrite !new_party_kk.
    destruct (maxi <? 2), (maxr <? 2); cbn [negb andb]; try (split; [reflexivity | discriminate]). cbv beta iota zeta.
    set (mi := if mini <? 2 then 2 else mini). set (mr := if minr <? 2 then 2 else minr).
    assert (0 <= mi <= 2) as Vi by (subst mi; destruct (Z.ltb_spec mini 2); lia).
    remember (run_kk _ _ faithful) as R eqn:H. apply kk_faithful in H; [ | exact Vi | exact V4 ].
    unfold fits in H.
    match type of H with if ?b then _ else _ => destruct b end; [exact H | split; [exact H | discriminate]].
  - rewrite (M1 eq_refl), !new_party_xx.
    remember (run_xx _ _ faithful) as R eqn:H. apply xx_faithful in H; [ | exact V1 | exact V4 ].
    unfold fits in H.
    match type of H with if ?b then _ else _ => destruct b end; [exact H | split; [|intros _]; apply H].
Qed.

(* in the terms of C03's completion theorem (KK: new_party refuses maxv < 2 and raises minv to 2, so all
   the effective versions are 2) *)
Lemma okb_spec : forall c,
  let mi := if c_kk c then Z.max 2 (c_mini c) else c_mini c in
  let mr := if c_kk c then Z.max 2 (c_minr c) else c_minr c in
  okb c = true <-> mr <= mi <= c_maxr c /\ c_maxr c <= c_maxi c /\ (c_maxr c = 0 -> c_plen c <= 498).
Proof.
  intros c. unfold okb.
  assert (forall a, (if a <? 2 then 2 else a) = Z.max 2 a) as MX by (intro a; destruct (Z.ltb_spec a 2); lia).
  destruct (c_kk c); cbn [andb]; rewrite ?MX;
    rewrite !andb_true_iff, orb_true_iff, ?negb_true_iff, ?Z.ltb_ge, Z.eqb_neq, !Z.leb_le; lia.
Qed.

(* The layers composed (Model/Stack.v): the GBN messages carrying the Noise
   records concatenate to the writer's stream; whatever prefix of them GBN has
   delivered, the reading side hands the application a prefix of the bytes
   written, never more than the buffer per call; when everything is delivered
   everything is read; the relay in the middle only ever sees ciphertext. *)
From Coq Require Import ZArith List Lia.
From LNC Require Import Noise NoiseRecord NoiseStream Stack.
Import ListNotations.
Open Scope Z_scope.

Lemma stack_messages_from_length : forall dir recs k,
  length (stack_messages_from dir k recs) = (2 * length recs)%nat.
Proof.
  induction recs as [|p recs IH]; intros k; [reflexivity|].
  cbn [stack_messages_from length]. rewrite IH. lia.
Qed.

Lemma stack_messages_from_concat : forall dir recs k,
  concat (stack_messages_from dir k recs) = writer_stream_from dir k recs.
Proof.
  induction recs as [|p recs IH]; intros k; [reflexivity|].
  cbn [stack_messages_from concat writer_stream_from].
  rewrite IH. unfold record_tags. rewrite app_assoc. reflexivity.
Qed.

Theorem stack_messages_concat : forall dir recs,
  concat (stack_messages dir recs) = writer_stream dir recs.
Proof. intros dir recs. apply stack_messages_from_concat. Qed.

(* Whatever reaches the reader (a relay that alters, drops or injects; GBN having delivered any part of
   the messages), the application reads a prefix: the record layer returns a prefix of the records (C02),
   NoiseGrpcConn.Read re-chunks it (C15) *)
Lemma read_stream_prefix : forall dir recs input fuel sizes,
  Forall (fun b => 0 <= b) sizes ->
  let outs := reads grpc_read [] (oks (read_all fuel dir recs (mk_reader 0 false) input)) sizes in
  is_prefix (concat outs) (concat recs) /\ Forall2 (fun out b => len out <= b) outs sizes.
Proof.
  intros dir recs input fuel sizes Hs outs.
  destruct (reads_seq_gen grpc_read grpc_step_ok []
              (oks (read_all fuel dir recs (mk_reader 0 false) input)) sizes Hs) as [Hq HF].
  split; [|exact HF].
  eapply is_prefix_trans; [exact Hq|]. apply is_prefix_concat, prefix_always.
Qed.

Theorem stack_stream_prefix_any_input : forall dir recs input fuel sizes,
  wf recs -> Forall (fun b => 0 <= b) sizes ->
  is_prefix (concat (reads grpc_read [] (oks (read_all fuel dir recs (mk_reader 0 false) input)) sizes))
            (concat recs).
Proof. intros dir recs input fuel sizes _ Hs. apply (read_stream_prefix dir recs input fuel sizes Hs). Qed.

Theorem stack_all_delivered : forall dir recs, wf recs ->
  oks (read_all (S (length recs)) dir recs (mk_reader 0 false)
         (concat (firstn (2 * length recs) (stack_messages dir recs)))) = recs.
Proof.
  intros dir recs Hwf.
  rewrite firstn_all2 by (unfold stack_messages; rewrite stack_messages_from_length; lia).
  rewrite stack_messages_concat, (roundtrip dir recs Hwf), oks_app, oks_map_ok. apply app_nil_r.
Qed.

Corollary stack_all_delivered_read : forall dir recs sizes, wf recs ->
  stack_read dir recs (2 * length recs) (S (length recs)) sizes = reads grpc_read [] recs sizes.
Proof.
  intros dir recs sizes Hwf. unfold stack_read.
  rewrite (stack_all_delivered dir recs Hwf). reflexivity.
Qed.

(* the messages are the stream, and the stream is sealed *)
Theorem relay_sees_only_ciphertext : forall dir recs,
  Forall (Forall (honest_tag dir)) (stack_messages dir recs).
Proof.
  intros dir recs. apply Forall_concat. rewrite stack_messages_concat. apply writer_all_sealed.
Qed.

Print Assumptions stack_messages_concat.
Print Assumptions stack_stream_prefix_any_input.
Print Assumptions stack_all_delivered.
Print Assumptions stack_all_delivered_read.
Print Assumptions relay_sees_only_ciphertext.

From LNC Require Import GoLite Noise GbnMonitor NoiseStream Reconnect.
Open Scope Z_scope.

(* `is_prefix` in this file is GbnMonitor's; NoiseRecord's, in which reads_seq_gen is stated, has the same
   body, so the two convert. *)

Lemma session_prefix_gen : forall rd, step_ok rd -> forall conns pending,
  Forall (fun c : connection => Forall (fun b => 0 <= b) (snd c)) conns ->
  Forall2 (fun outs (c : connection) => is_prefix (concat outs) (concat (fst c)))
          (session true rd pending conns) conns.
Proof.
  intros rd Hrd conns. induction conns as [|[src sizes] rest IH]; intros pending Hall.
  - constructor.
  - inversion Hall as [|? ? Hs Hrest]; subst. cbn [session fst snd] in *.
    constructor; [|apply IH, Hrest].
    (* the handshake has emptied `pending`: the connection starts from its own records *)
    exact (proj1 (reads_seq_gen rd Hrd [] src sizes Hs)).
Qed.

(* every connection of a session delivers a prefix of what was written ON THAT CONNECTION, whatever was left
   unread on the connections before it *)
Theorem session_streams_are_per_connection : forall rd, rd = grpc_read \/ rd = buf_read ->
  forall conns pending,
  Forall (fun c : connection => Forall (fun b => 0 <= b) (snd c)) conns ->
  Forall2 (fun outs (c : connection) => is_prefix (concat outs) (concat (fst c)))
          (session true rd pending conns) conns.
Proof. intros rd Hrd. apply session_prefix_gen, readers_step_ok, Hrd. Qed.

(* without the reset the tail of a record of connection 1 comes out on connection 2 *)
Theorem session_without_reset_refuted :
  exists conns, ~ Forall2 (fun outs (c : connection) => is_prefix (concat outs) (concat (fst c)))
                          (session false grpc_read [] conns) conns.
Proof.
  exists [([[1; 2; 3; 4]], [2]); ([[9]], [8])].
  vm_compute. intros H. inversion H as [|? ? ? ? _ H2]; subst.
  inversion H2 as [|? ? ? ? [t Ht] _]; subst. discriminate Ht.
Qed.

Example session_ex :
  session true grpc_read [] [([[1; 2; 3; 4]], [2]); ([[9]], [8])] = [[[1; 2]]; [[9]]]
  /\ session false grpc_read [] [([[1; 2; 3; 4]], [2]); ([[9]], [8])] = [[[1; 2]]; [[3; 4]]].
Proof. vm_compute. split; reflexivity. Qed.

Print Assumptions session_streams_are_per_connection.
Print Assumptions session_without_reset_refuted.

(* Close affects the connection it was called on, and only that one *)

Lemma set_closed_length : forall k l, length (set_closed k l) = length l.
Proof. induction k as [|k IH]; intros [|b l]; cbn; auto. Qed.

Lemma set_closed_nth : forall k j l, nth j (set_closed k l) false = negb (j =? k)%nat && nth j l false.
Proof.
  induction k as [|k IH]; intros [|j] [|b l]; cbn [set_closed nth Nat.eqb negb andb]; try reflexivity.
  - destruct (j =? k)%nat; reflexivity.
  - apply IH.
Qed.

Lemma set_closed_idem : forall k l, set_closed k (set_closed k l) = set_closed k l.
Proof. induction k as [|k IH]; intros [|b l]; cbn; auto. f_equal. apply IH. Qed.

Lemma set_closed_beyond : forall k l, (length l <= k)%nat -> set_closed k l = l.
Proof.
  induction k as [|k IH]; intros [|b l] H; cbn [set_closed length] in *; try reflexivity; [lia|].
  f_equal. apply IH. lia.
Qed.

(* so the test "is there such a handle yet" in cstep changes nothing when the handle is the connection's own *)
Lemma cstep_close : forall st k, cstep false st (CClose k) = set_closed k st.
Proof.
  intros st k. cbn [cstep]. destruct (Nat.ltb_spec k (length st)); [reflexivity|].
  symmetry. apply set_closed_beyond. assumption.
Qed.

Theorem close_twice_is_close_once : forall st k,
  cstep false (cstep false st (CClose k)) (CClose k) = cstep false st (CClose k).
Proof. intros st k. rewrite !cstep_close. apply set_closed_idem. Qed.

(* no bound on k: a flag that does not exist reads false *)
Theorem close_closes_its_own : forall st k, nth k (cstep false st (CClose k)) false = false.
Proof. intros st k. rewrite cstep_close, set_closed_nth, Nat.eqb_refl. reflexivity. Qed.

Lemma stays_open_gen : forall j evs st,
  ~ In (CClose j) evs -> (j < length st + handshakes evs)%nat ->
  ((j < length st)%nat -> nth j st false = true) ->
  nth j (crun false st evs) false = true.
Proof.
  intros j evs. induction evs as [|ev evs IH]; intros st Hn Hlt Hopen.
  - apply Hopen. cbn in Hlt. lia.
  - cbn [crun fold_left].
    assert (Hn' : ~ In (CClose j) evs) by (intros H; apply Hn; right; exact H).
    destruct ev as [|k]; cbn [handshakes] in Hlt.
    + (* a handshake opens connection `length st` and leaves the others *)
      cbn [cstep]. apply IH; [exact Hn' | rewrite app_length; cbn [length]; lia |].
      rewrite app_length. cbn [length]. intros Hj.
      destruct (Nat.lt_ge_cases j (length st)).
      * rewrite app_nth1 by assumption. apply Hopen. assumption.
      * replace j with (length st) by lia. rewrite app_nth2, Nat.sub_diag by lia. reflexivity.
    + (* a Close of another connection *)
      rewrite cstep_close. apply IH; [exact Hn' | rewrite set_closed_length; lia |].
      rewrite set_closed_length, set_closed_nth. intros Hj.
      destruct (Nat.eqb_spec j k) as [->|_]; [destruct Hn; left; reflexivity | apply Hopen, Hj].
Qed.

(* every connection of a session stays open until ITS OWN handle is closed, whatever is done with the handles of
   the other connections, in any order and any number of times *)
Theorem connection_open_until_its_own_close : forall evs j,
  (j < handshakes evs)%nat -> ~ In (CClose j) evs -> nth j (crun false [] evs) false = true.
Proof.
  intros evs j Hj Hn. apply stays_open_gen; [assumption | cbn; lia | cbn; lia].
Qed.

(* with the one shared object as every handle, a second Close of connection 0 closes connection 1 *)
Theorem shared_close_refuted :
  ~ In (CClose 1) [CHandshake; CClose 0; CHandshake; CClose 0] /\
  nth 1 (crun true [] [CHandshake; CClose 0; CHandshake; CClose 0]) false = false /\
  nth 1 (crun false [] [CHandshake; CClose 0; CHandshake; CClose 0]) false = true.
Proof.
  split; [|split; reflexivity].
  intros [H|[H|[H|[H|[]]]]]; discriminate.
Qed.

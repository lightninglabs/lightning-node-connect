(* Window arithmetic of gbn/queue.go, about the go2coq-generated definitions.
   The code keeps base and top as residues in 0..s-1 and computes everything from the
   cyclic distance `wsize s base x = (x - base) mod s`; the first half says what each
   function computes in those terms, for every pair of residues. B, T are unbounded ghost
   counters (sender base / top) with base = B mod s, top = T mod s: the second half
   reads the same facts in terms of B and T (`_ghost`, `_index`), and the group at the end
   (`_in_range`) is the form the properties C07 / C09 state, with their six separate
   hypotheses and their `2 <= s` (`window` needs only `1 <= s`).

   The bounds: s is a uint8 and s = n + 1, so s <= 255 and n <= 254; and with s <= 255 the
   code's `u8 (x + 1)` for a residue x < s does not wrap. *)
From LNC Require Import GoLite MessagesGen QueueGen.
Open Scope Z_scope.

(* the one case distinction behind every branch of queue.go *)
Lemma mod_wrap x s : - s <= x < s -> x mod s = if x <? 0 then x + s else x.
Proof.
  intros H. destruct (Z.ltb_spec x 0).
  - rewrite <- (Z.mod_add x 1), Z.mod_small by lia. lia.
  - apply Z.mod_small. lia.
Qed.

(* a residue identifies an index inside any span of s consecutive indices *)
Lemma mod_unique d1 d2 s : 0 < s -> d1 mod s = d2 mod s -> - s < d1 - d2 < s -> d1 = d2.
Proof.
  intros Hs He Hr.
  assert ((d1 - d2) mod s = 0) as H0.
  { rewrite Zminus_mod, He, Z.sub_diag. apply Z.mod_0_l. lia. }
  apply Z.mod_divide in H0; [|lia]. destruct H0 as [k Hk].
  assert (k = 0) by nia. lia.
Qed.

Definition wsize (s base top : Z) : Z := (top - base) mod s.

Lemma wsize_bound s b t : 0 < s -> 0 <= wsize s b t < s.
Proof. apply Z.mod_pos_bound. Qed.

(* for residues it is the difference, corrected by s when top has wrapped and base has not *)
Lemma wsize_cases s b t : 0 <= b < s -> 0 <= t < s ->
  b <= t /\ wsize s b t = t - b \/ t < b /\ wsize s b t = t - b + s.
Proof.
  intros Hb Ht. unfold wsize. rewrite mod_wrap by lia. destruct (Z.ltb_spec (t - b) 0); lia.
Qed.

Lemma wsize_mod_l s B x : wsize s (B mod s) x = (x - B) mod s.
Proof. apply Zminus_mod_idemp_r. Qed.

Lemma wsize_ghost s B T : 0 <= T - B < s -> wsize s (B mod s) (T mod s) = T - B.
Proof. intros. unfold wsize. rewrite <- Zminus_mod. apply Z.mod_small. lia. Qed.

Lemma wsize_inv s b x : 0 <= x < s -> (b + wsize s b x) mod s = x.
Proof.
  intros Hx. unfold wsize. rewrite Z.add_comm, Zplus_mod_idemp_l.
  replace (x - b + b) with x by lia. apply Z.mod_small; lia.
Qed.

Lemma wsize_self s b : 0 < s -> wsize s b b = 0.
Proof. intros. unfold wsize. rewrite Z.sub_diag. apply Z.mod_0_l. lia. Qed.

Lemma wsize_inj s b x y : 0 <= x < s -> 0 <= y < s -> wsize s b x = wsize s b y -> x = y.
Proof. intros Hx Hy E. rewrite <- (wsize_inv s b x), <- (wsize_inv s b y), E by assumption. reflexivity. Qed.

Lemma wsize_eqb s b x y : 0 <= x < s -> 0 <= y < s -> (x =? y) = (wsize s b x =? wsize s b y).
Proof.
  intros Hx Hy. destruct (Z.eqb_spec (wsize s b x) (wsize s b y)) as [E|E], (Z.eqb_spec x y) as [->|Hne];
    try reflexivity; [|contradiction]. apply wsize_inj in E; [contradiction|assumption..].
Qed.

Lemma wsize_split s b x t : 0 <= x < s -> wsize s b x <= wsize s b t ->
  wsize s b x + wsize s x t = wsize s b t.
Proof.
  intros Hx Hle. pose proof (wsize_bound s b x ltac:(lia)). pose proof (wsize_bound s b t ltac:(lia)).
  rewrite <- (wsize_inv s b x Hx) at 2. rewrite wsize_mod_l.
  replace (t - (b + wsize s b x)) with (t - b - wsize s b x) by lia.
  rewrite <- Zminus_mod_idemp_l. fold (wsize s b t). rewrite Z.mod_small; lia.
Qed.

Lemma wsize_succ s b x : 0 < s -> wsize s b x + 1 < s -> wsize s b ((x + 1) mod s) = wsize s b x + 1.
Proof.
  intros Hs Hx. pose proof (wsize_bound s b x Hs). unfold wsize in *.
  rewrite Zminus_mod_idemp_l. replace (x + 1 - b) with (x - b + 1) by lia.
  rewrite <- Zplus_mod_idemp_l. apply Z.mod_small. lia.
Qed.

Lemma containsSequence_total b t sq : exists r, containsSequence b t sq = Ok r.
Proof.
  unfold containsSequence.
  destruct (b =? t); [eauto|]. destruct (b <? t).
  - destruct ((b <=? sq) && (sq <? t)); eauto.
  - destruct ((sq <? t) || (b <=? sq)); eauto.
Qed.

Lemma if_bool {A} (c : bool) (f : bool -> A) : (if c then f true else f false) = f c.
Proof. destruct c; reflexivity. Qed.

(* sq lies in the window iff it is nearer to base than top is *)
Lemma containsSequence_wsize s b t sq :
  0 <= b < s -> 0 <= t < s -> 0 <= sq < s ->
  containsSequence b t sq = Ok (wsize s b sq <? wsize s b t).
Proof.
  intros Hb Ht Hq. unfold containsSequence. rewrite !(if_bool _ Ok).
  pose proof (wsize_cases s b sq Hb Hq). pose proof (wsize_cases s b t Hb Ht).
  destruct (b =? t) eqn:E1; [|destruct (b <? t) eqn:E2]; f_equal; lia.
Qed.

(* q is a queue over the sequence space 0..s-1 that stands at the residues base, top *)
Record window (q : queue) (s base top : Z) : Prop := {
  w_s : 1 <= s <= 255;
  w_cfg : queueCfg_s (queue_cfg q) = s;
  w_base : queue_sequenceBase q = base;
  w_top : queue_sequenceTop q = top;
  w_b : 0 <= base < s;
  w_t : 0 <= top < s;
}.
Arguments w_s {q s base top}.
Arguments w_cfg {q s base top}.
Arguments w_base {q s base top}.
Arguments w_top {q s base top}.
Arguments w_b {q s base top}.
Arguments w_t {q s base top}.

Definition with_base (q : queue) (b : Z) : queue := set_queue_sequenceBase q b.

Lemma with_base_same q : with_base q (queue_sequenceBase q) = q.
Proof. destruct q; reflexivity. Qed.

Lemma size_wsize {q s base top} : window q s base top -> queue_size q = Ok (wsize s base top).
Proof.
  intros [Hs Hcs Hbase Htop Hb Ht]. unfold queue_size. rewrite Hcs, Hbase, Htop.
  destruct (wsize_cases s base top Hb Ht) as [[? ->]|[? ->]], (Z.leb_spec base top); try lia.
  - rewrite u8_small; [reflexivity|lia].
  - rewrite (u8_small (s - base)), u8_small by lia. f_equal. lia.
Qed.

(* an ACK for a packet inside the window moves the base behind it; anything else is ignored *)
Lemma processACK_wsize {q s base top} sq : window q s base top -> 0 <= sq ->
  queue_processACK q sq =
    if (sq <? s) && (wsize s base sq <? wsize s base top)
    then Ok (with_base q ((sq + 1) mod s), true)
    else Ok (q, false).
Proof.
  intros W Hsq. unfold queue_processACK. rewrite (size_wsize W). destruct W as [Hs Hcs Hbase Htop Hb Ht].
  rewrite Hcs, Hbase, Htop. cbn [bind].
  destruct (Z.ltb_spec sq s), (Z.leb_spec s sq); try lia; cbn [andb];
    [|destruct (_ =? 0); reflexivity].
  rewrite (containsSequence_wsize s), !umod_ok, !u8_small by lia. cbn [bind].
  pose proof (wsize_bound s base sq ltac:(lia)). pose proof (wsize_bound s base top ltac:(lia)).
  (* the code treats sq = base apart, where the distance is 0, and the empty window, where nothing is nearer than top *)
  destruct (Z.eqb_spec sq base) as [->|]; [rewrite wsize_self by lia|];
    destruct (Z.eqb_spec (wsize s base top) 0) as [->|]; try reflexivity.
  - destruct (Z.ltb_spec 0 (wsize s base top)); [reflexivity|lia].
  - destruct (Z.ltb_spec (wsize s base sq) 0); [lia|reflexivity].
Qed.

(* a NACK for a packet inside the window, or for top, moves the base to it *)
Lemma processNACK_wsize {q s base top} sq : window q s base top -> 0 <= sq ->
  queue_processNACK q sq =
    let o := wsize s base sq in let w := wsize s base top in
    if (sq <? s) && (o <=? w)
    then Ok (with_base q sq, negb (o =? w), if o =? w then true else negb (o =? 0))
    else Ok (q, false, false).
Proof.
  intros [Hs Hcs Hbase Htop Hb Ht] Hsq. cbv zeta. unfold queue_processNACK. rewrite Hcs, Hbase, Htop.
  destruct (Z.ltb_spec sq s), (Z.leb_spec s sq); try lia; cbn [andb]; [|reflexivity].
  rewrite (containsSequence_wsize s) by lia. cbn [bind].
  (* the code tests sq = top and sq = base where the statement compares distances *)
  rewrite (wsize_eqb s base sq top), (Z.eqb_sym base), (wsize_eqb s base sq base), wsize_self by lia.
  destruct (Z.eqb_spec (wsize s base sq) (wsize s base top)) as [E|E].
  - rewrite E, Z.leb_refl. apply (wsize_inj s base) in E; [|lia..]. rewrite E. reflexivity.
  - destruct (Z.ltb_spec (wsize s base sq) (wsize s base top)), (Z.leb_spec (wsize s base sq) (wsize s base top));
      try lia; cbn [negb]; [|reflexivity].
    destruct (wsize s base sq =? 0); reflexivity.
Qed.

Record sender_ok (q : queue) (n B T : Z) : Prop := {
  so_n : 1 <= n <= 254;
  so_BT : 0 <= B <= T;
  so_win : T <= B + n;
  so_s : queueCfg_s (queue_cfg q) = n + 1;
  so_base : queue_sequenceBase q = B mod (n + 1);
  so_top : queue_sequenceTop q = T mod (n + 1);
}.

Lemma sender_ok_window {q n B T} : sender_ok q n B T -> window q (n + 1) (B mod (n + 1)) (T mod (n + 1)).
Proof. intros [Hn HBT Hw Hs Hb Ht]. constructor; try assumption; try lia; apply Z.mod_pos_bound; lia. Qed.

Lemma size_ghost q n B T : sender_ok q n B T -> queue_size q = Ok (T - B).
Proof.
  intros Hok. rewrite (size_wsize (sender_ok_window Hok)), wsize_ghost; [reflexivity|].
  destruct Hok. lia.
Qed.

Lemma sender_ok_with_base q n B T B' :
  sender_ok q n B T -> B <= B' <= T -> sender_ok (with_base q (B' mod (n + 1))) n B' T.
Proof.
  intros [Hn HBT Hw Hs Hb Ht] HB'. constructor; cbn; try assumption; try lia.
Qed.

Lemma processACK_ghost q n B T sq :
  sender_ok q n B T -> 0 <= sq < 256 ->
  let s := n + 1 in
  let off := (sq - B) mod s in
  queue_processACK q sq =
    if (sq <? s) && (off <? T - B)
    then Ok (with_base q ((B + off + 1) mod s), true)
    else Ok (q, false).
Proof.
  intros Hok Hsq s off. pose proof Hok as [Hn HBT Hw _ _ _].
  rewrite (processACK_wsize sq (sender_ok_window Hok) (proj1 Hsq)), wsize_mod_l, wsize_ghost by lia.
  fold s off. destruct (Z.ltb_spec sq s); [|reflexivity]. cbn [andb]. destruct (off <? T - B); [|reflexivity].
  rewrite <- (wsize_inv s B sq) at 1 by lia. unfold wsize. fold off.
  rewrite Zplus_mod_idemp_l. reflexivity.
Qed.

Lemma processNACK_ghost q n B T sq :
  sender_ok q n B T -> 0 <= sq < 256 ->
  let s := n + 1 in
  let off := (sq - B) mod s in
  queue_processNACK q sq =
    if (sq <? s) && (off <=? T - B)
    then Ok (with_base q ((B + off) mod s), negb (off =? T - B), if off =? T - B then true else negb (off =? 0))
    else Ok (q, false, false).
Proof.
  intros Hok Hsq s off. pose proof Hok as [Hn HBT Hw _ _ _].
  rewrite (processNACK_wsize sq (sender_ok_window Hok) (proj1 Hsq)). cbv zeta.
  rewrite wsize_mod_l, wsize_ghost by lia. fold s off.
  destruct (Z.ltb_spec sq s); [|reflexivity]. cbn [andb].
  replace ((B + off) mod s) with sq by (symmetry; apply (wsize_inv s B sq); lia). reflexivity.
Qed.

(* the two together, as the protocol uses them: a cumulative acknowledgement e in B..T,
   sent as ACK (e - 1) or as NACK e, moves the base to e *)
Lemma processACK_index q n B T e : sender_ok q n B T -> B <= e <= T -> 1 <= e ->
  exists r, queue_processACK q ((e - 1) mod (n + 1)) = Ok (with_base q (e mod (n + 1)), r).
Proof.
  intros Hok He He1. pose proof Hok as [Hn HBT Hw Hs Hb Ht].
  pose proof (Z.mod_pos_bound (e - 1) (n + 1) ltac:(lia)) as Ha.
  rewrite (processACK_ghost q n B T) by (exact Hok || lia). cbv zeta.
  rewrite Zminus_mod_idemp_l. destruct (Z.ltb_spec ((e - 1) mod (n + 1)) (n + 1)); [|lia]. cbn [andb].
  rewrite mod_wrap by lia.
  destruct (Z.ltb_spec (e - 1 - B) 0).
  - assert (e = B) as -> by lia. destruct (Z.ltb_spec (B - 1 - B + (n + 1)) (T - B)); [lia|].
    exists false. rewrite <- Hb, with_base_same. reflexivity.
  - destruct (Z.ltb_spec (e - 1 - B) (T - B)); [|lia]. exists true.
    replace (B + (e - 1 - B) + 1) with e by lia. reflexivity.
Qed.

Lemma processNACK_index q n B T e : sender_ok q n B T -> B <= e <= T ->
  exists r1 r2, queue_processNACK q (e mod (n + 1)) = Ok (with_base q (e mod (n + 1)), r1, r2).
Proof.
  intros Hok He. pose proof Hok as [Hn HBT Hw Hs Hb Ht].
  pose proof (Z.mod_pos_bound e (n + 1) ltac:(lia)) as Hv.
  rewrite (processNACK_ghost q n B T) by (exact Hok || lia). cbv zeta.
  rewrite Zminus_mod_idemp_l, (Z.mod_small (e - B)) by lia.
  destruct (Z.ltb_spec (e mod (n + 1)) (n + 1)), (Z.leb_spec (e - B) (T - B)); try lia. cbn [andb].
  replace (B + (e - B)) with e by lia. eauto.
Qed.

Lemma addPacket_ghost q n B T p :
  sender_ok q n B T -> len (queue_content q) = n + 1 ->
  let p' := set_PacketData_Seq p (T mod (n + 1)) in
  exists c',
    queue_addPacket q p = Ok (set_queue_sequenceTop (set_queue_content q c') ((T + 1) mod (n + 1)), p') /\
    len c' = n + 1 /\ idx c' (T mod (n + 1)) = Ok (Some p') /\
    forall j, 0 <= j -> j <> T mod (n + 1) -> idx c' j = idx (queue_content q) j.
Proof.
  intros [Hn HBT Hw Hs Hb Ht] Hlen p'. pose proof (Z.mod_pos_bound T (n + 1) ltac:(lia)) as HbT.
  destruct (upd_spec (queue_content q) (T mod (n + 1)) (Some p') ltac:(lia)) as (c' & E & Hl & Hc').
  rewrite Hlen in Hl. exists c'. split; [|exact (conj Hl Hc')]. unfold queue_addPacket. rewrite Ht. fold p'. rewrite E. cbn [bind]. simpl.
  rewrite Ht, Hs, umod_ok, u8_small, Zplus_mod_idemp_l by lia. reflexivity.
Qed.

(* For arbitrary uint8 inputs (C07 / C09): the two functions move the base, if at all, to a residue b' that is not
   farther from base than top is, so every field stays in range and the window does not grow. *)
Lemma with_base_in_range {q s base top} b' : window q s base top -> 0 <= b' < s ->
  wsize s base b' <= wsize s base top ->
  0 <= queue_sequenceBase (with_base q b') < s /\ queue_sequenceTop (with_base q b') = top /\
  queueCfg_s (queue_cfg (with_base q b')) = s /\ queue_content (with_base q b') = queue_content q /\
  wsize s (queue_sequenceBase (with_base q b')) top <= wsize s base top.
Proof.
  intros [Hs Hcs _ Htop _ _] Hb' Hle. cbn. repeat split; try assumption; try lia.
  pose proof (wsize_bound s base b' ltac:(lia)). pose proof (wsize_split s base b' top Hb' Hle). lia.
Qed.

Lemma processACK_in_range q s base top sq :
  2 <= s <= 255 -> 0 <= base < s -> 0 <= top < s -> 0 <= sq < 256 ->
  queueCfg_s (queue_cfg q) = s -> queue_sequenceBase q = base -> queue_sequenceTop q = top ->
  exists q' r, queue_processACK q sq = Ok (q', r) /\
    0 <= queue_sequenceBase q' < s /\ queue_sequenceTop q' = top /\
    queueCfg_s (queue_cfg q') = s /\ queue_content q' = queue_content q /\
    wsize s (queue_sequenceBase q') top <= wsize s base top /\
    (r = false -> q' = q).
Proof.
  intros Hs Hb Ht Hq Hcs Hbase Htop.
  assert (W : window q s base top) by (constructor; assumption || lia).
  rewrite (processACK_wsize sq W (proj1 Hq)). destruct (_ && _) eqn:E; eexists _, _; (split; [reflexivity|]).
  - apply andb_prop in E. destruct E as [_ E]. apply Z.ltb_lt in E.
    pose proof (wsize_bound s base top ltac:(lia)).
    destruct (with_base_in_range ((sq + 1) mod s) W) as (R1 & R2 & R3 & R4 & R5);
      [apply Z.mod_pos_bound; lia|rewrite wsize_succ; lia|].
    repeat split; try assumption; try apply R1. discriminate.
  - subst base top. repeat split; assumption || lia.
Qed.

Lemma processNACK_in_range q s base top sq :
  2 <= s <= 255 -> 0 <= base < s -> 0 <= top < s -> 0 <= sq < 256 ->
  queueCfg_s (queue_cfg q) = s -> queue_sequenceBase q = base -> queue_sequenceTop q = top ->
  exists q' r1 r2, queue_processNACK q sq = Ok (q', r1, r2) /\
    0 <= queue_sequenceBase q' < s /\ queue_sequenceTop q' = top /\
    queueCfg_s (queue_cfg q') = s /\ queue_content q' = queue_content q /\
    wsize s (queue_sequenceBase q') top <= wsize s base top.
Proof.
  intros Hs Hb Ht Hq Hcs Hbase Htop.
  assert (W : window q s base top) by (constructor; assumption || lia).
  rewrite (processNACK_wsize sq W (proj1 Hq)). cbv zeta.
  destruct (_ && _) eqn:E; eexists _, _, _; (split; [reflexivity|]).
  - apply andb_prop in E. destruct E as [E1 E2]. apply with_base_in_range; [exact W|lia..].
  - subst base top. repeat split; assumption || lia.
Qed.

Lemma size_in_range q s base top :
  2 <= s <= 255 -> 0 <= base < s -> 0 <= top < s ->
  queueCfg_s (queue_cfg q) = s -> queue_sequenceBase q = base -> queue_sequenceTop q = top ->
  queue_size q = Ok (wsize s base top) /\ 0 <= wsize s base top <= s - 1.
Proof.
  intros Hs Hb Ht Hcs Hbase Htop. split; [apply size_wsize; constructor; assumption || lia|].
  pose proof (wsize_bound s base top ltac:(lia)). lia.
Qed.

(* The monitors and closed systems of Model/ (hrun, krun, prun, srun) all run a
   partial step function over a list of events, stopping at the first refusal.
   [orun step] is that run; each of them is convertible to an instance, so the
   facts about splitting a run and carrying an invariant along it are proved
   here once.  The run functions are instances BY CONVERSION (they are not defined
   through orun): a lemma of this file, given the step function, applies to a
   hypothesis or goal about hrun, krun, prun, srun as it stands, also under
   [rewrite] (e.g. [rewrite (orun_app sstep) in H] with H about srun). *)
From Coq Require Import List.
Import ListNotations.

Section OptRun.
  Context {St Ev : Type} (step : St -> Ev -> option St).

  Fixpoint orun (st : St) (tr : list Ev) : option St :=
    match tr with
    | [] => Some st
    | e :: rest => match step st e with Some st' => orun st' rest | None => None end
    end.

  Lemma orun_app : forall pre post st,
    orun st (pre ++ post) = match orun st pre with Some st1 => orun st1 post | None => None end.
  Proof.
    induction pre as [|e pre IH]; intros post st; cbn [app orun]; [reflexivity|].
    destruct (step st e); [apply IH | reflexivity].
  Qed.

  Lemma orun_snoc : forall tr e st st', orun st (tr ++ [e]) = Some st' ->
    exists st1, orun st tr = Some st1 /\ step st1 e = Some st'.
  Proof.
    intros tr e st st' H. rewrite orun_app in H.
    destruct (orun st tr) as [st1|]; [|discriminate].
    exists st1. split; [reflexivity|].
    cbn [orun] in H. destruct (step st1 e); [exact H | discriminate].
  Qed.

  Lemma orun_inv : forall (Q : Ev -> Prop) (P : St -> Prop),
    (forall st e st', Q e -> P st -> step st e = Some st' -> P st') ->
    forall tr st st', Forall Q tr -> P st -> orun st tr = Some st' -> P st'.
  Proof.
    intros Q P Hstep tr. induction tr as [|e tr IH]; intros st st' HQ HP H; cbn [orun] in H.
    - injection H as <-. exact HP.
    - inversion HQ as [|? ? He HQ']; subst.
      destruct (step st e) as [st1|] eqn:E1; [|discriminate].
      exact (IH st1 st' HQ' (Hstep st e st1 He HP E1) H).
  Qed.

  Lemma orun_inv_all : forall (P : St -> Prop),
    (forall st e st', P st -> step st e = Some st' -> P st') ->
    forall tr st st', P st -> orun st tr = Some st' -> P st'.
  Proof.
    intros P Hstep tr st st'. apply (orun_inv (fun _ => True)).
    - intros st0 e st1 _. apply Hstep.
    - apply Forall_forall. trivial.
  Qed.

  Lemma orun_first : forall (flag : St -> bool) tr st st',
    orun st tr = Some st' -> flag st = false -> flag st' = true ->
    exists pre e post st1 st2, tr = pre ++ e :: post /\ orun st pre = Some st1 /\ flag st1 = false /\
                               step st1 e = Some st2 /\ flag st2 = true.
  Proof.
    intros flag tr. induction tr as [|e tr IH]; intros st st' H Hf Ht; cbn [orun] in H.
    - injection H as <-. congruence.
    - destruct (step st e) as [st1|] eqn:E1; [|discriminate].
      destruct (flag st1) eqn:Hf1.
      + exists [], e, tr, st, st1. auto.
      + destruct (IH st1 st' H Hf1 Ht) as (pre & e0 & post & st2 & st3 & -> & Hrun & Hrest).
        exists (e :: pre), e0, post, st2, st3. split; [reflexivity|]. cbn [orun]. rewrite E1. auto.
  Qed.
End OptRun.

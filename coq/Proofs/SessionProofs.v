From Coq Require Import ZArith List Bool Lia.
From LNC Require Import Session OptRun.
Import ListNotations.
Open Scope Z_scope.

Definition open_list (st : sst) : list Z := match s_open st with Some i => [i] | None => [] end.

(* open_after replays the history on the list of open connections; the monitor's
   s_open is that list, one step at a time *)
Lemma sstep_open : forall st e st', sstep st e = Some st' -> open_after [e] (open_list st) = open_list st'.
Proof.
  intros st e st' H. unfold open_list. destruct e as [|id|id|]; cbn [sstep open_after] in *.
  - injection H as <-. reflexivity.
  - destruct (s_open st); [discriminate|].
    destruct ((id =? s_next st) && (0 <? s_calls st)); [|discriminate]. injection H as <-. reflexivity.
  - destruct (s_open st) as [j|] eqn:Ho; [|injection H as <-; rewrite Ho; reflexivity].
    cbn [filter]. rewrite Z.eqb_sym. destruct (id =? j); injection H as <-; cbn; rewrite ?Ho; reflexivity.
  - destruct (0 <? s_calls st); [|discriminate]. injection H as <-. reflexivity.
Qed.

Lemma srun_open_after : forall tr st st',
  srun st tr = Some st' -> open_after tr (open_list st) = open_list st'.
Proof.
  induction tr as [|e tr IH]; intros st st' H; cbn [srun] in H.
  - injection H as <-. reflexivity.
  - destruct (sstep st e) as [st1|] eqn:E; [|discriminate].
    rewrite <- (IH st1 st' H), <- (sstep_open st e st1 E). destruct e; reflexivity.
Qed.

(* in every accepted history, at every point, at most one handed-out connection is open *)
Theorem at_most_one_open : forall tr st', srun sinit tr = Some st' -> (length (open_after tr []) <= 1)%nat.
Proof.
  intros tr st' H. rewrite (srun_open_after tr sinit st' H : open_after tr [] = _).
  unfold open_list. destruct (s_open st'); cbn; lia.
Qed.

(* ... and this holds for every prefix of the history (prefix-closedness of srun) *)
Theorem exclusive_at_every_point : forall pre post st', srun sinit (pre ++ post) = Some st' ->
  (length (open_after pre []) <= 1)%nat.
Proof.
  intros pre post st' H. rewrite (orun_app sstep) in H.
  destruct (orun sstep sinit pre) as [st1|] eqn:H1; [|discriminate].
  exact (at_most_one_open pre st1 H1).
Qed.

(* a connection is handed out only after the previous one closed *)
Theorem ret_requires_closed : forall st id st', sstep st (SRet id) = Some st' -> s_open st = None /\ s_open st' = Some id.
Proof.
  intros st id st' H. unfold sstep in H. destruct (s_open st); [discriminate|].
  destruct ((id =? s_next st) && (0 <? s_calls st)); [|discriminate]. injection H as <-. split; reflexivity.
Qed.

Print Assumptions exclusive_at_every_point.
Print Assumptions ret_requires_closed.

(* Every theorem here is a fact about one step of a monitor of Model/GbnTimed.v,
   carried to accepted histories by the lemmas of OptRun. *)
From Coq Require Import ZArith List Lia.
From LNC Require Import GbnTimed OptRun.
Import ListNotations.
Open Scope Z_scope.

Lemma kstep_closes ping pong slack st t ev st' :
  0 <= slack -> k_closed st = false -> kstep ping pong slack st (t, ev) = Some st' -> k_closed st' = true ->
  ev = KClose /\ ping + pong <= t - k_last st.
Proof.
  intros Hs Hc H Hc'. unfold kstep in H. rewrite Hc in H.
  destruct (Z.ltb_spec (ping + pong + slack) (t - k_last st)).
  - destruct ev; try discriminate. split; [reflexivity | lia].
  - destruct ev.
    + injection H as <-. discriminate.
    + destruct (t - k_last st <? ping); [discriminate|]. injection H as <-. congruence.
    + destruct (Z.ltb_spec (t - k_last st) (ping + pong)); [discriminate|]. split; [reflexivity | lia].
    + injection H as <-. congruence.
Qed.

(* live peer: every keepalive closure in an accepted history is preceded by a silence of at
   least ping + pong (so a peer heard from more often than that is never closed, however long
   the connection stays idle) *)
Theorem closure_only_after_silence ping pong slack : 0 <= slack ->
  forall tr st st', k_closed st = false -> krun ping pong slack st tr = Some st' -> k_closed st' = true ->
  exists pre t post st1, tr = pre ++ (t, KClose) :: post /\ krun ping pong slack st pre = Some st1 /\
                         k_closed st1 = false /\ ping + pong <= t - k_last st1.
Proof.
  intros Hs tr st st' Hc H Hcl.
  destruct (orun_first (kstep ping pong slack) k_closed tr st st' H Hc Hcl)
    as (pre & [t ev] & post & st1 & st2 & -> & Hpre & Hc1 & Hstep & Hc2).
  destruct (kstep_closes _ _ _ _ _ _ _ Hs Hc1 Hstep Hc2) as [-> Hsil].
  exists pre, t, post, st1. auto.
Qed.

(* dead peer: in an accepted history, an endpoint that is still open has heard from its peer
   within the last ping + pong + slack *)
Theorem dead_peer_detected ping pong slack :
  forall tr st st' t ev, krun ping pong slack st (tr ++ [(t, ev)]) = Some st' ->
  k_closed st' = false -> exists st1, krun ping pong slack st tr = Some st1 /\ t - k_last st1 <= ping + pong + slack.
Proof.
  intros tr st st' t ev H Hc.
  destruct (orun_snoc (kstep ping pong slack) tr (t, ev) st st' H) as (st1 & Hrun & E).
  exists st1. split; [exact Hrun|].
  unfold kstep in E. destruct (k_closed st1) eqn:Hc1; [injection E as <-; congruence|].
  destruct (Z.ltb_spec (ping + pong + slack) (t - k_last st1)); [|lia].
  destruct ev; try discriminate. injection E as <-. discriminate.
Qed.

(* progress: in an accepted history no pending message of an open connection is overdue *)
Theorem no_overdue_message bound :
  forall tr st st' t ev, prun bound st (tr ++ [(t, ev)]) = Some st' -> p_closed st' = false -> ev <> PClosed -> ev <> PReliable ->
  exists st1, prun bound st tr = Some st1 /\ overdue bound t st1 = false.
Proof.
  intros tr st st' t ev H Hc Hne Hnr.
  destruct (orun_snoc (pstep bound) tr (t, ev) st st' H) as (st1 & Hrun & E).
  exists st1. split; [exact Hrun|].
  unfold pstep in E. destruct (p_closed st1) eqn:Hc1; [injection E as <-; congruence|].
  destruct ev; try congruence; destruct (overdue bound t st1); try discriminate; reflexivity.
Qed.

Print Assumptions closure_only_after_silence.
Print Assumptions dead_peer_detected.
Print Assumptions no_overdue_message.

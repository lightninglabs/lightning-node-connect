(* The pairing-phrase codec of Model/Pairing.v (14 entropy bytes <-> 10 word indices of 11 bits, MSB first): the
   two directions are inverse to each other up to the two unused low bits of the last byte, and what they
   return is in range.

   Each direction is pinned down by the bit string it moves: entropy_to_words e = ws as soon as the bits of
   e begin with the 11-bit encodings of ws (e2w_of_bits), words_to_entropy ws = e as soon as the bits of e are
   those encodings and two zero bits (w2e_of_bits); every bit string of the right length is met by some
   numbers in range (bits_surj), which gives what the output of either function looks like (e2w_spec,
   w2e_spec). The round trips put the two together. *)
From Coq Require Import ZArith List Lia.
From LNC Require Import Pairing.
Import ListNotations.
Open Scope Z_scope.

Local Notation z0 := (fun c : list bool => z_of_bits c 0).

Lemma bits_msb_length : forall w x, length (bits_msb w x) = w.
Proof. induction w as [|w IH]; intros x; cbn [bits_msb length]; auto. Qed.

Lemma pow2_S : forall n : nat, 2 ^ Z.of_nat (S n) = 2 * 2 ^ Z.of_nat n.
Proof. intros n. rewrite Nat2Z.inj_succ, Z.pow_succ_r by lia. reflexivity. Qed.

Lemma pow2_pos : forall n : nat, 0 < 2 ^ Z.of_nat n.
Proof. intros n. apply Z.pow_pos_nonneg; lia. Qed.

Lemma z_of_bits_acc : forall bs acc,
  z_of_bits bs acc = acc * 2 ^ Z.of_nat (length bs) + z_of_bits bs 0.
Proof.
  induction bs as [|b rest IH]; intros acc.
  - cbn [z_of_bits length]. change (2 ^ Z.of_nat 0) with 1. lia.
  - cbn [z_of_bits length]. rewrite pow2_S.
    rewrite (IH (2 * acc + (if b then 1 else 0))).
    rewrite (IH (2 * 0 + (if b then 1 else 0))). ring.
Qed.

Lemma z_of_bits_range : forall bs, 0 <= z_of_bits bs 0 < 2 ^ Z.of_nat (length bs).
Proof.
  induction bs as [|b rest IH].
  - cbn [z_of_bits length]. change (2 ^ Z.of_nat 0) with 1. lia.
  - cbn [z_of_bits length]. rewrite pow2_S, z_of_bits_acc.
    destruct b; lia.
Qed.

Lemma testbit_top : forall a L r, 0 <= L -> 0 <= r < 2 ^ L -> Z.testbit (a * 2 ^ L + r) L = Z.odd a.
Proof.
  intros a L r HL Hr. rewrite Z.testbit_odd, Z.shiftr_div_pow2, Z.div_add_l, Z.div_small by lia.
  f_equal. lia.
Qed.

(* decoding then re-encoding a bit list gives the bit list back.  What the accumulator held ends up above the
   bits read back; with it a variable, the induction hypothesis applies to the tail as it stands. *)
Lemma bits_msb_z_of_bits : forall bs acc, bits_msb (length bs) (z_of_bits bs acc) = bs.
Proof.
  induction bs as [|b rest IH]; intros acc; [reflexivity|].
  cbn [length bits_msb z_of_bits]. f_equal; [|apply IH].
  rewrite z_of_bits_acc, testbit_top by (pose proof (z_of_bits_range rest); lia).
  rewrite Z.add_comm, Z.odd_add_mul_2. destruct b; reflexivity.
Qed.

(* encoding then decoding gives the value modulo 2^width (any x, incl. negative) *)
Lemma z_of_bits_bits_msb : forall w x,
  z_of_bits (bits_msb w x) 0 = x mod 2 ^ Z.of_nat w.
Proof.
  induction w as [|w IH]; intros x.
  - cbn [bits_msb z_of_bits]. change (2 ^ Z.of_nat 0) with 1. rewrite Z.mod_1_r. reflexivity.
  - cbn [bits_msb z_of_bits]. rewrite z_of_bits_acc, bits_msb_length, IH, pow2_S.
    rewrite (Z.mul_comm 2 (2 ^ Z.of_nat w)).
    rewrite Z.rem_mul_r by (pose proof (pow2_pos w); lia).
    pose proof (Z.testbit_spec' x (Z.of_nat w) ltac:(lia)) as Hb.
    rewrite <- Hb. unfold Z.b2z. ring.
Qed.

Lemma firstn_exact : forall (A : Type) (c X : list A) n,
  length c = n -> firstn n (c ++ X) = c.
Proof.
  intros A c X n H. rewrite firstn_app, H, Nat.sub_diag.
  cbn [firstn]. rewrite app_nil_r. apply firstn_all2. lia.
Qed.

Lemma skipn_exact : forall (A : Type) (c X : list A) n,
  length c = n -> skipn n (c ++ X) = X.
Proof.
  intros A c X n H. subst n. induction c as [|a c IH]; cbn [length skipn app]; auto.
Qed.

Lemma chunks_S : forall f n l, l <> [] ->
  chunks (S f) n l = firstn n l :: chunks f n (skipn n l).
Proof. intros f n l H. destruct l; [congruence|reflexivity]. Qed.

Lemma chunks_nil : forall f n, chunks f n [] = [].
Proof. intros f n. destruct f; reflexivity. Qed.

(* chunking the concatenated n-bit encodings of xs returns the encodings *)
Lemma chunks_bits : forall n xs tl fuel, (0 < n)%nat -> (length xs <= fuel)%nat ->
  chunks fuel n (flat_map (bits_msb n) xs ++ tl)
  = map (bits_msb n) xs ++ chunks (fuel - length xs) n tl.
Proof.
  intros n xs tl fuel Hn. revert fuel.
  induction xs as [|x xs IH]; intros fuel Hfuel.
  - cbn [flat_map map app length]. rewrite Nat.sub_0_r. reflexivity.
  - cbn [length] in Hfuel. destruct fuel as [|fuel]; [lia|].
    cbn [flat_map map length]. rewrite <- app_assoc.
    rewrite chunks_S.
    + rewrite firstn_exact, skipn_exact by apply bits_msb_length.
      rewrite IH by lia. reflexivity.
    + destruct n; [lia|discriminate].
Qed.

Lemma map_z0_bits_id : forall n (l : list Z),
  Forall (fun x => 0 <= x < 2 ^ Z.of_nat n) l ->
  map z0 (map (bits_msb n) l) = l.
Proof.
  intros n l Hf. induction Hf as [|x l Hx Hf IH]; [reflexivity|].
  cbn [map]. rewrite IH. f_equal.
  rewrite z_of_bits_bits_msb. apply Z.mod_small. exact Hx.
Qed.

Lemma flat_map_length_const : forall (A : Type) (f : A -> list bool) n l,
  (forall x, length (f x) = n) -> length (flat_map f l) = (length l * n)%nat.
Proof.
  intros A f n l H. induction l as [|a l IH]; [reflexivity|].
  cbn [flat_map length Nat.mul]. rewrite app_length, H, IH. reflexivity.
Qed.

(* every string of k*n bits is the concatenated n-bit encoding of k numbers below 2^n *)
Lemma bits_surj : forall n k (bs : list bool), length bs = (k * n)%nat ->
  exists xs, length xs = k /\ Forall (fun x => 0 <= x < 2 ^ Z.of_nat n) xs /\
             flat_map (bits_msb n) xs = bs.
Proof.
  intros n k. induction k as [|k IH]; intros bs H.
  - exists []. destruct bs; [|discriminate]. repeat split; constructor.
  - destruct (IH (skipn n bs)) as (xs & Hl & Hr & Hb).
    { rewrite skipn_length, H. cbn [Nat.mul]. lia. }
    assert (Hc : length (firstn n bs) = n) by (rewrite firstn_length, H; cbn [Nat.mul]; lia).
    pose proof (z_of_bits_range (firstn n bs)) as Hz.
    pose proof (bits_msb_z_of_bits (firstn n bs) 0) as Hbz. rewrite Hc in Hz, Hbz.
    exists (z_of_bits (firstn n bs) 0 :: xs). split; [|split].
    + cbn [length]. congruence.
    + constructor; assumption.
    + cbn [flat_map]. rewrite Hb, Hbz. apply firstn_skipn.
Qed.

Lemma bytes_to_bits_length : forall e, length (bytes_to_bits e) = (length e * 8)%nat.
Proof. intros e. apply flat_map_length_const. intros x. apply bits_msb_length. Qed.

Lemma words_bits_length : forall ws, length ws = 10%nat -> length (flat_map (bits_msb 11) ws) = 110%nat.
Proof.
  intros ws Hw. rewrite (flat_map_length_const _ _ 11), Hw by (intros; apply bits_msb_length). reflexivity.
Qed.

(* entropy_to_words: ReadBits(11) ten times returns the words whose encodings the stream begins with *)
Lemma e2w_of_bits : forall e ws tl, length ws = 10%nat -> Forall word_ok ws ->
  bytes_to_bits e = flat_map (bits_msb 11) ws ++ tl -> entropy_to_words e = ws.
Proof.
  intros e ws tl Hw Hok Hb. unfold entropy_to_words, num_words, bits_per_word.
  rewrite Hb, chunks_bits by lia.
  rewrite firstn_exact by (rewrite map_length; exact Hw).
  apply map_z0_bits_id. exact Hok.
Qed.

(* words_to_entropy: 110 bits + two zero bits of padding are fourteen whole bytes *)
Lemma w2e_of_bits : forall ws e, length ws = 10%nat -> length e = 14%nat -> Forall byte_ok e ->
  bytes_to_bits e = flat_map (bits_msb 11) ws ++ [false; false] -> words_to_entropy ws = e.
Proof.
  intros ws e Hw He Hok Hb.
  unfold words_to_entropy, entropy_bytes, bits_per_word, pad8. cbv zeta.
  rewrite (words_bits_length ws Hw).
  change (repeat false ((8 - 110 mod 8) mod 8)) with [false; false].
  rewrite <- Hb. unfold bytes_to_bits. rewrite <- (app_nil_r (flat_map _ e)).
  rewrite chunks_bits by lia. rewrite chunks_nil, app_nil_r, map_z0_bits_id by exact Hok.
  apply firstn_exact. exact He.
Qed.

Lemma e2w_spec : forall e, length e = 14%nat ->
  length (entropy_to_words e) = 10%nat /\ Forall word_ok (entropy_to_words e) /\
  flat_map (bits_msb 11) (entropy_to_words e) = firstn 110 (bytes_to_bits e).
Proof.
  intros e Hlen.
  destruct (bits_surj 11 10 (firstn 110 (bytes_to_bits e))) as (ws & Hw & Hok & Hb).
  { rewrite firstn_length, bytes_to_bits_length, Hlen. reflexivity. }
  rewrite (e2w_of_bits e ws (skipn 110 (bytes_to_bits e)) Hw Hok)
    by (rewrite Hb; symmetry; apply firstn_skipn).
  exact (conj Hw (conj Hok Hb)).
Qed.

Lemma w2e_spec : forall ws, length ws = 10%nat ->
  length (words_to_entropy ws) = 14%nat /\ Forall byte_ok (words_to_entropy ws) /\
  bytes_to_bits (words_to_entropy ws) = flat_map (bits_msb 11) ws ++ [false; false].
Proof.
  intros ws Hw.
  destruct (bits_surj 8 14 (flat_map (bits_msb 11) ws ++ [false; false])) as (e & He & Hok & Hb).
  { rewrite app_length, (words_bits_length ws Hw). reflexivity. }
  rewrite (w2e_of_bits ws e Hw He Hok Hb).
  exact (conj He (conj Hok Hb)).
Qed.

Lemma clr_eq : forall x, x - x mod 4 = (x / 2 ^ 2) * 2 ^ 2.
Proof. intros x. change (2 ^ 2) with 4. pose proof (Z.div_mod x 4). lia. Qed.

Lemma clr_hi : forall x i, 2 <= i -> Z.testbit (x - x mod 4) i = Z.testbit x i.
Proof.
  intros x i Hi. rewrite clr_eq, Z.mul_pow2_bits, Z.div_pow2_bits by lia.
  f_equal. lia.
Qed.

Lemma clr_lo : forall x i, i < 2 -> Z.testbit (x - x mod 4) i = false.
Proof. intros x i Hi. rewrite clr_eq. apply Z.mul_pow2_bits_low. exact Hi. Qed.

Lemma last_byte_bits : forall x,
  bits_msb 8 (x - x mod 4) = firstn 6 (bits_msb 8 x) ++ [false; false].
Proof.
  intros x. cbn [bits_msb firstn app].
  rewrite !clr_hi by lia. rewrite !clr_lo by lia. reflexivity.
Qed.

Lemma clear_unused_snoc : forall front last,
  clear_unused (front ++ [last]) = front ++ [last - last mod 4].
Proof.
  intros front last. unfold clear_unused. rewrite rev_unit, rev_involutive. reflexivity.
Qed.

Lemma clear_unused_length : forall e, length (clear_unused e) = length e.
Proof.
  intros e. unfold clear_unused. rewrite <- (rev_length e).
  destruct (rev e) as [|last front]; [reflexivity|].
  rewrite app_length, rev_length. cbn [length]. lia.
Qed.

Lemma clear_unused_ok : forall e, Forall byte_ok e -> Forall byte_ok (clear_unused e).
Proof.
  intros e Hok. apply Forall_rev in Hok. unfold clear_unused.
  destruct (rev e) as [|last front]; [constructor|].
  inversion Hok as [|? ? Hb Hfr]; subst.
  apply Forall_app. split; [apply Forall_rev, Hfr|]. constructor; [|constructor].
  unfold byte_ok in *. pose proof (Z.mod_pos_bound last 4 ltac:(lia)).
  pose proof (Z.mod_le last 4 ltac:(lia) ltac:(lia)). lia.
Qed.

Lemma clear_bits : forall e, length e = 14%nat ->
  flat_map (bits_msb 8) (clear_unused e)
  = firstn 110 (bytes_to_bits e) ++ [false; false].
Proof.
  intros e Hlen.
  destruct (@exists_last _ e) as (front & last & ->); [intros ->; discriminate|].
  rewrite app_length in Hlen. cbn [length] in Hlen.
  rewrite clear_unused_snoc. unfold bytes_to_bits. rewrite !flat_map_app.
  cbn [flat_map]. rewrite !app_nil_r.
  assert (Hfl : length (flat_map (bits_msb 8) front) = 104%nat).
  { rewrite (flat_map_length_const _ _ 8) by (intros; apply bits_msb_length). lia. }
  rewrite firstn_app, Hfl.
  rewrite firstn_all2 by (rewrite Hfl; lia).
  change (110 - 104)%nat with 6%nat.
  rewrite <- app_assoc. f_equal. apply last_byte_bits.
Qed.

Theorem words_roundtrip : forall ws, length ws = 10%nat -> Forall word_ok ws ->
  entropy_to_words (words_to_entropy ws) = ws.
Proof.
  intros ws Hlen Hok. destruct (w2e_spec ws Hlen) as (_ & _ & Hb).
  exact (e2w_of_bits _ ws _ Hlen Hok Hb).
Qed.

Theorem entropy_roundtrip : forall e, length e = 14%nat -> Forall byte_ok e ->
  words_to_entropy (entropy_to_words e) = clear_unused e.
Proof.
  intros e Hlen Hok. destruct (e2w_spec e Hlen) as (Hw & _ & Hb).
  apply (w2e_of_bits _ _ Hw).
  - rewrite clear_unused_length. exact Hlen.
  - apply clear_unused_ok. exact Hok.
  - rewrite Hb. apply clear_bits. exact Hlen.
Qed.

(* the range hypothesis is not used *)
Theorem words_in_range : forall e, length e = 14%nat -> Forall byte_ok e ->
  length (entropy_to_words e) = 10%nat /\ Forall word_ok (entropy_to_words e).
Proof. intros e Hlen _. destruct (e2w_spec e Hlen) as (Hw & Hok & _). exact (conj Hw Hok). Qed.

(* the range hypothesis is not used *)
Theorem entropy_in_range : forall ws, length ws = 10%nat -> Forall word_ok ws ->
  length (words_to_entropy ws) = 14%nat /\ Forall byte_ok (words_to_entropy ws).
Proof. intros ws Hlen _. destruct (w2e_spec ws Hlen) as (He & Hok & _). exact (conj He Hok). Qed.

Theorem words_injective : forall e1 e2,
  length e1 = 14%nat -> length e2 = 14%nat ->
  Forall byte_ok e1 -> Forall byte_ok e2 ->
  entropy_to_words e1 = entropy_to_words e2 -> clear_unused e1 = clear_unused e2.
Proof.
  intros e1 e2 H1 H2 Hok1 Hok2 Heq.
  rewrite <- (entropy_roundtrip e1 H1 Hok1), <- (entropy_roundtrip e2 H2 Hok2), Heq.
  reflexivity.
Qed.

Theorem entropy_injective : forall w1 w2,
  length w1 = 10%nat -> length w2 = 10%nat ->
  Forall word_ok w1 -> Forall word_ok w2 ->
  words_to_entropy w1 = words_to_entropy w2 -> w1 = w2.
Proof.
  intros w1 w2 H1 H2 Hok1 Hok2 Heq.
  rewrite <- (words_roundtrip w1 H1 Hok1), <- (words_roundtrip w2 H2 Hok2), Heq.
  reflexivity.
Qed.

(* The two dropped bits are really dropped: entropies differing only in the low
   two bits of the last byte give the same phrase (so words_injective cannot be
   strengthened to e1 = e2). *)
Example low_bits_dropped :
  entropy_to_words [0;0;0;0;0;0;0;0;0;0;0;0;0;3]
  = entropy_to_words [0;0;0;0;0;0;0;0;0;0;0;0;0;0].
Proof. vm_compute. reflexivity. Qed.

Example roundtrip_example :
  words_to_entropy (entropy_to_words [255;1;2;3;4;5;6;7;8;9;10;11;12;255])
  = [255;1;2;3;4;5;6;7;8;9;10;11;12;252].
Proof. vm_compute. reflexivity. Qed.

Print Assumptions words_roundtrip.
Print Assumptions entropy_roundtrip.
Print Assumptions words_in_range.
Print Assumptions entropy_in_range.
Print Assumptions words_injective.
Print Assumptions entropy_injective.

(* Send-side chunking (split_msg, the loop of GoBackNConn.Send) against
   Recv-side reassembly (take_msg / reassemble): splitting loses nothing,
   every message ends in exactly one FinalChunk, chunk sizes respect
   maxChunkSize, and reassembling the chunk stream of a list of messages
   gives the messages back. *)
From LNC Require Import GoLite GbnMonitor.
Open Scope Z_scope.

Lemma split_fuel_shape c : 0 < c -> forall fuel data,
  (length data <= fuel)%nat -> (0 < fuel)%nat ->
  exists front lastc,
    split_fuel fuel c data = front ++ [(lastc, true)] /\
    Forall (fun ch => snd ch = false) front /\
    concat (map fst front) ++ lastc = data /\
    Forall (fun ch => len (fst ch) = c) front /\ len lastc <= c.
Proof.
  intros Hc. induction fuel as [|f IH]; intros data Hlen Hf; [lia|].
  cbn [split_fuel]. destruct (len data <=? c) eqn:E.
  - apply Z.leb_le in E. exists [], data. cbn [app map concat].
    repeat split; [constructor..|exact E].
  - apply Z.leb_gt in E. unfold len in E.
    assert (Hsk : (length (skipn (Z.to_nat c) data) <= f)%nat) by (rewrite skipn_length; lia).
    assert (Hf' : (0 < f)%nat) by lia.
    destruct (IH _ Hsk Hf') as (front & lastc & Heq & Hfr & Hcat & Hsz & Hl).
    exists ((firstn (Z.to_nat c) data, false) :: front), lastc.
    rewrite Heq. cbn [app map concat fst]. repeat split.
    + constructor; [reflexivity|exact Hfr].
    + rewrite <- app_assoc, Hcat. apply firstn_skipn.
    + constructor; [|exact Hsz]. unfold len. cbn [fst]. rewrite firstn_length_le by lia. lia.
    + exact Hl.
Qed.

Lemma split_msg_shape c data : 0 <= c ->
  exists front lastc,
    split_msg c data = front ++ [(lastc, true)] /\
    Forall (fun ch => snd ch = false) front /\
    concat (map fst front) ++ lastc = data /\
    (0 < c -> Forall (fun ch => len (fst ch) = c) front /\ len lastc <= c).
Proof.
  intros Hc. unfold split_msg. destruct (c =? 0) eqn:E.
  - apply Z.eqb_eq in E. exists [], data. cbn [app map concat].
    repeat split; try constructor. lia.
  - apply Z.eqb_neq in E. assert (Hc' : 0 < c) by lia.
    destruct data as [|b data].
    + exists [], []. cbn [app map concat]. repeat split; try constructor.
      rewrite len_nil. lia.
    + destruct (split_fuel_shape c Hc' (length (b :: data)) (b :: data)) as
        (front & lastc & Heq & Hfr & Hcat & Hb); [lia|cbn [length]; lia|].
      exists front, lastc. rewrite Heq. auto.
Qed.

Lemma split_off data : split_msg 0 data = [(data, true)].
Proof. reflexivity. Qed.

Lemma split_empty c : split_msg c [] = [([], true)].
Proof. unfold split_msg. destruct (c =? 0); reflexivity. Qed.

Lemma split_concat c data : 0 <= c -> concat (map fst (split_msg c data)) = data.
Proof.
  intros Hc. destruct (split_msg_shape c data Hc) as (front & lastc & Heq & _ & Hcat & _).
  rewrite Heq, map_app, concat_app. cbn [map concat fst]. rewrite app_nil_r. exact Hcat.
Qed.

Lemma split_last_final c data : 0 <= c ->
  exists front lastc, split_msg c data = front ++ [(lastc, true)] /\ Forall (fun ch => snd ch = false) front.
Proof.
  intros Hc. destruct (split_msg_shape c data Hc) as (front & lastc & Heq & Hfr & _).
  exists front, lastc. split; assumption.
Qed.

Lemma split_bounds c data : 0 < c ->
  Forall (fun ch => len (fst ch) <= c) (split_msg c data) /\
  (forall front lastc, split_msg c data = front ++ [(lastc, true)] -> Forall (fun ch => len (fst ch) = c) front).
Proof.
  intros Hc. destruct (split_msg_shape c data ltac:(lia)) as (front & lastc & Heq & _ & _ & Hb).
  destruct (Hb Hc) as [Hfr Hl]. split.
  - rewrite Heq. apply Forall_app. split.
    + eapply Forall_impl; [|exact Hfr]. intros ch H. cbv beta in H. lia.
    + constructor; [exact Hl|constructor].
  - intros front' lastc' Heq'. rewrite Heq in Heq'. apply app_inj_tail in Heq'.
    destruct Heq' as [<- _]. exact Hfr.
Qed.

Lemma split_nonempty c data : split_msg c data <> [].
Proof.
  unfold split_msg. destruct (c =? 0); [discriminate|].
  destruct data as [|b data]; [discriminate|].
  cbn [length split_fuel]. destruct (len (b :: data) <=? c); discriminate.
Qed.

(* take_msg reads only (Payload, FinalChunk): non-final chunks are appended, the first final one ends the message *)
Lemma take_msg_chunks front lastc rest : forall pkts acc,
  map proj pkts = front ++ [(lastc, true)] -> Forall (fun ch => snd ch = false) front ->
  take_msg (pkts ++ rest) acc = Some (acc ++ concat (map fst front) ++ lastc, rest).
Proof.
  induction front as [|ch front IH]; intros [|p pkts] acc Hmap Hfr; try discriminate;
    cbn [app take_msg map concat].
  - injection Hmap as Hpay Hfin Hnil. apply map_eq_nil in Hnil. subst pkts.
    rewrite Hpay, Hfin. reflexivity.
  - injection Hmap as <- Hmap. inversion Hfr as [|? ? Hch Hfr']; subst. cbn [proj snd fst] in *.
    rewrite Hch, (IH _ _ Hmap Hfr'), <- !app_assoc. reflexivity.
Qed.

Lemma take_msg_split pkts c data rest acc : 0 <= c -> map proj pkts = split_msg c data ->
  take_msg (pkts ++ rest) acc = Some (acc ++ data, rest).
Proof.
  intros Hc Hmap.
  destruct (split_msg_shape c data Hc) as (front & lastc & Heq & Hfr & Hcat & _).
  rewrite Heq in Hmap. rewrite (take_msg_chunks _ _ _ _ _ Hmap Hfr), Hcat. reflexivity.
Qed.

Lemma reassemble_fuel_split c : 0 <= c -> forall msgs pkts fuel,
  (length msgs <= fuel)%nat ->
  map proj pkts = concat (map (split_msg c) msgs) -> reassemble_fuel fuel pkts = msgs.
Proof.
  intros Hc. induction msgs as [|m msgs IH]; intros pkts fuel Hfuel Hmap.
  - cbn [map concat] in Hmap. apply map_eq_nil in Hmap. subst pkts.
    destruct fuel; reflexivity.
  - destruct fuel as [|fuel]; [cbn [length] in Hfuel; lia|].
    cbn [map concat] in Hmap. apply map_eq_app in Hmap.
    destruct Hmap as (p1 & p2 & -> & Hp1 & Hp2).
    cbn [reassemble_fuel]. rewrite (take_msg_split p1 c m p2 [] Hc Hp1). cbn [app].
    f_equal. apply IH; [cbn [length] in Hfuel; lia|exact Hp2].
Qed.

Lemma chunks_length c msgs : (length msgs <= length (concat (map (split_msg c) msgs)))%nat.
Proof.
  induction msgs as [|m msgs IH]; cbn [map concat length]; [lia|].
  rewrite app_length. pose proof (split_nonempty c m) as Hne.
  destruct (split_msg c m); [congruence|]. cbn [length]. lia.
Qed.

Theorem split_reassemble c msgs pkts : 0 <= c ->
  map proj pkts = concat (map (split_msg c) msgs) -> reassemble pkts = msgs.
Proof.
  intros Hc Hmap. unfold reassemble. apply (reassemble_fuel_split c Hc); [|exact Hmap].
  rewrite <- (map_length proj pkts), Hmap. apply chunks_length.
Qed.

(* chunk_pkts is a right inverse of proj, so the hypothesis of split_reassemble is satisfiable *)
Lemma proj_chunk_pkts l : map proj (chunk_pkts l) = l.
Proof.
  unfold chunk_pkts. rewrite map_map. rewrite <- (map_id l) at 2.
  apply map_ext. intros [pl fin]. reflexivity.
Qed.

Corollary split_reassemble_chunks c msgs : 0 <= c ->
  reassemble (chunk_pkts (concat (map (split_msg c) msgs))) = msgs.
Proof. intros Hc. apply (split_reassemble c); [exact Hc|apply proj_chunk_pkts]. Qed.

Print Assumptions split_off.
Print Assumptions split_concat.
Print Assumptions split_last_final.
Print Assumptions split_bounds.
Print Assumptions take_msg_split.
Print Assumptions split_reassemble.

(* The GBN handshake (Model/GbnHandshake.v).  Safety rests on one invariant of the closed system, hinv,
   over the ghost list of the SYNs that ever entered the client->server channel; hstep_cases reduces its
   preservation to what one move of the client or of the server does.  Convergence is the evaluation of a
   fixed schedule; the two stalls are invariants, inv_stall of every event, inv_silent of every event but
   the client's DATA. *)
From LNC Require Import GoLite GbnHandshake OptRun.
Open Scope Z_scope.

Lemma in_syns_of : forall l m, In m (syns_of l) <-> In (HSyn m) l.
Proof.
  intros l m; unfold syns_of; rewrite in_flat_map; split.
  - intros [p [Hp Hm]]. destruct p; cbn in Hm; try contradiction.
    destruct Hm as [->|[]]. exact Hp.
  - intros H. exists (HSyn m). split; [exact H|cbn; auto].
Qed.

(* every move of the client keeps its n, never leaves CFailed, and the only
   SYN it ever emits carries its own n *)
Definition client_act (c c' : client) (out : list hpkt) : Prop :=
  cl_n c' = cl_n c /\ (cl_phase c = CFailed -> cl_phase c' = CFailed) /\
  (forall m, In (HSyn m) out -> m = cl_n c).

Lemma client_start_act : forall c, client_act c (fst (client_start c)) (snd (client_start c)).
Proof.
  intros [ph n]. unfold client_act, client_start.
  destruct ph; cbn; repeat split; auto; try discriminate; intros m H; intuition congruence.
Qed.

Lemma client_timeout_act : forall c, client_act c (fst (client_timeout c)) (snd (client_timeout c)).
Proof.
  intros [ph n]. unfold client_act, client_timeout.
  destruct ph; cbn; repeat split; auto; intros m H; intuition congruence.
Qed.

Lemma client_rx_act : forall c p, client_act c (fst (client_rx c p)) (snd (client_rx c p)).
Proof.
  intros [ph n] p. unfold client_act, client_rx.
  destruct ph, p as [k| | | |]; cbn; try destruct (k =? n);
    cbn; repeat split; auto; try discriminate; intros m H; intuition discriminate.
Qed.

(* the server is committed to its n once a valid SYN has been echoed *)
Definition committed (s : server) : Prop :=
  sv_phase s = SWaitSynAck \/ sv_phase s = SDone \/ (sv_phase s = SWaitSyn /\ sv_resent s = true).

(* every move of the server either keeps its n and gains no commitment, or
   adopts the representable n of a SYN that is in its channel *)
Definition server_act (ab : list hpkt) (s s' : server) : Prop :=
  (sv_n s' = sv_n s /\ (committed s' -> committed s)) \/
  (In (HSyn (sv_n s')) ab /\ valid_n (sv_n s') = true).

Lemma server_syn_act : forall ab s n r, In (HSyn n) ab -> server_act ab s (fst (server_syn s n r)).
Proof.
  intros ab s n r Hin. unfold server_syn. destruct (valid_n n) eqn:Ev; cbn [fst].
  - right. cbn. auto.
  - left. split; [reflexivity|]. intros [H|[H|[H _]]]; discriminate.
Qed.

Lemma server_rx_act : forall ab s p, In p ab -> server_act ab s (fst (server_rx s p)).
Proof.
  intros ab [ph n r] p Hin. unfold server_rx. cbn [sv_phase sv_n sv_resent].
  destruct ph, p as [m| | | |], r; try (apply server_syn_act, Hin);
    (* without a SYN the server keeps its n, and completes only if it was committed *)
    left; (split; [reflexivity|]); unfold committed; cbn; intuition congruence.
Qed.

Lemma server_timeout_act : forall ab s, server_act ab s (server_timeout s).
Proof.
  intros ab [ph n r]. left. unfold server_timeout, committed. destruct ph; cbn; auto.
Qed.

(* a step is a move of the client, whose output goes into the channel and the
   ghost, or a move of the server on a packet of its channel, which only
   shrinks *)
Lemma hstep_cases : forall st ev st', hstep st ev = Some st' ->
  (exists c' out ba',
     st' = mk_hsys c' (h_s st) (h_ab st ++ out) ba' (h_syns_ab st ++ syns_of out) /\
     client_act (h_c st) c' out) \/
  (exists s' ab' ba',
     st' = mk_hsys (h_c st) s' ab' ba' (h_syns_ab st) /\
     server_act (h_ab st) (h_s st) s' /\ incl ab' (h_ab st)).
Proof.
  intros [c s ab ba syns] ev st' H. cbn [h_c h_s h_ab h_ba h_syns_ab].
  assert (Hrefl : server_act ab s s) by (left; auto).
  destruct ev as [| | |o|o|]; cbn [hstep h_c h_s h_ab h_ba h_syns_ab] in H.
  - pose proof (client_start_act c) as Ha. destruct (client_start c) as [c' out].
    injection H as <-. left. eauto.
  - pose proof (client_timeout_act c) as Ha. destruct (client_timeout c) as [c' out].
    injection H as <-. left. eauto.
  - injection H as <-. right. do 3 eexists. split; [reflexivity|].
    auto using server_timeout_act, incl_refl.
  - destruct ab as [|p rest]; [discriminate|].
    pose proof (server_rx_act (p :: rest) s p (or_introl eq_refl)) as Hrx.
    destruct (server_rx s p) as [s' out]. cbn [fst] in Hrx.
    destruct o; injection H as <-; right; do 3 eexists; (split; [reflexivity|]);
      auto using incl_refl, incl_tl.
  - destruct ba as [|p rest]; [discriminate|].
    pose proof (client_rx_act c p) as Ha. destruct (client_rx c p) as [c' out].
    destruct o; injection H as <-; [left; eauto | left; eauto |].
    right. do 3 eexists. split; [reflexivity|]. auto using incl_refl.
  - (* DATA is an output of the client with no SYN in it *)
    destruct (cl_phase c); try discriminate. injection H as <-.
    left. exists c, [HData], ba. cbn [syns_of flat_map app]. rewrite app_nil_r.
    split; [reflexivity|]. repeat split; auto. intros m [Hm|[]]. discriminate.
Qed.

(* n is the client's proposal, sab the stale packets toward the server *)
Record hinv (n : Z) (sab : list hpkt) (st : hsys) : Prop := {
  hinv_n : cl_n (h_c st) = n;
  hinv_valid : cl_phase (h_c st) = CFailed \/ valid_n n = true;
  hinv_server : committed (h_s st) -> valid_n (sv_n (h_s st)) = true /\ In (sv_n (h_s st)) (h_syns_ab st);
  hinv_chan : forall m, In (HSyn m) (h_ab st) -> In m (h_syns_ab st);
  hinv_origin : forall m, In m (h_syns_ab st) -> In m (syns_of sab) \/ m = n
}.

Lemma hinv_step : forall n sab st ev st', hinv n sab st -> hstep st ev = Some st' -> hinv n sab st'.
Proof.
  intros n sab st ev st' [Hn Hv Hsv Hab Hor] Hstep.
  destruct (hstep_cases _ _ _ Hstep) as [(c' & out & ba' & -> & Ecn & Ecf & Eout) | (s' & ab' & ba' & -> & Hact & Hincl)].
  - (* client: the ghost grows by exactly the SYNs that enter the channel *)
    constructor; cbn [h_c h_s h_ab h_syns_ab].
    + congruence.
    + destruct Hv as [Hv|Hv]; auto.
    + intros Hc. destruct (Hsv Hc) as [Hval Hin]. split; [exact Hval | apply in_or_app; auto].
    + intros m Hin. apply in_or_app. apply in_app_or in Hin.
      destruct Hin as [Hin|Hin]; [left; auto | right; apply in_syns_of; exact Hin].
    + intros m Hin. apply in_app_or in Hin. destruct Hin as [Hin|Hin]; [auto|].
      right. rewrite <- Hn. apply Eout, in_syns_of, Hin.
  - (* server: its channel only shrinks, the ghost stays *)
    constructor; cbn [h_c h_s h_ab h_syns_ab]; try assumption.
    + destruct Hact as [[En Hc] | [Hin Hval]].
      * rewrite En. intros Hc'. exact (Hsv (Hc Hc')).
      * intros _. split; [exact Hval | exact (Hab _ Hin)].
    + intros m Hin. exact (Hab m (Hincl _ Hin)).
Qed.

Lemma hinv_init : forall n sab sba, hinv n sab (hinit n sab sba).
Proof.
  intros n sab sba. constructor; cbn.
  - reflexivity.
  - destruct (valid_n n); auto.
  - intros [H|[H|[_ H]]]; discriminate.
  - intros m Hin. apply in_syns_of; exact Hin.
  - auto.
Qed.

Theorem hinv_reachable : forall n sab sba evs st,
  hrun (hinit n sab sba) evs = Some st -> hinv n sab st.
Proof.
  intros n sab sba evs st.
  exact (orun_inv_all hstep (hinv n sab) (hinv_step n sab) evs _ st (hinv_init n sab sba)).
Qed.

(* the server only ever completes with a representable window that some SYN
   put into its channel proposed (a stale one, or one the client sent) *)
Theorem server_done_valid : forall n sab sba evs st,
  hrun (hinit n sab sba) evs = Some st -> sv_phase (h_s st) = SDone ->
  valid_n (sv_n (h_s st)) = true /\ In (sv_n (h_s st)) (h_syns_ab st).
Proof.
  intros n sab sba evs st Hrun Hdone.
  apply (hinv_server _ _ _ (hinv_reachable _ _ _ _ _ Hrun)). right; left; exact Hdone.
Qed.

(* every SYN in the client->server channel was either stale or sent by this
   client with its own n *)
Theorem syns_ab_origin : forall n sab sba evs st,
  hrun (hinit n sab sba) evs = Some st ->
  forall m, In m (h_syns_ab st) -> In m (syns_of sab) \/ m = n.
Proof. intros n sab sba evs st Hrun. exact (hinv_origin _ _ _ (hinv_reachable _ _ _ _ _ Hrun)). Qed.

(* agreement: without a foreign stale SYN, a server that completes uses the
   client's window *)
Theorem agreement : forall n sab sba evs st,
  (forall m, In m (syns_of sab) -> m = n) ->
  hrun (hinit n sab sba) evs = Some st -> sv_phase (h_s st) = SDone -> sv_n (h_s st) = n.
Proof.
  intros n sab sba evs st Hstale Hrun Hdone.
  destruct (server_done_valid _ _ _ _ _ Hrun Hdone) as [_ Hin].
  destruct (syns_ab_origin _ _ _ _ _ Hrun _ Hin) as [H|H]; [apply Hstale; exact H|exact H].
Qed.

(* the client only completes with its own n and only if that n is representable *)
Theorem client_done_valid : forall n sab sba evs st,
  hrun (hinit n sab sba) evs = Some st -> cl_phase (h_c st) = CDone ->
  cl_n (h_c st) = n /\ valid_n n = true.
Proof.
  intros n sab sba evs st Hrun Hdone.
  destruct (hinv_reachable _ _ _ _ _ Hrun) as [Hn [Hf|Hv] _ _ _]; [congruence|auto].
Qed.

(* the client resends its SYN, it is delivered, the echo is delivered, the
   SYNACK is delivered *)
Definition sched_fresh : list hevent := [HClientTimeout; HAB HDeliver; HBA HDeliver; HAB HDeliver].
(* DATA completes a server that a timeout has sent back to SWaitSyn (sv_resent); one that still waits for the
   SYNACK fails on it (gbn_server.go: `default: return io.EOF`), so its timeout has to come first *)
Definition sched_data : list hevent := [HClientData; HAB HDeliver].
Definition sched_data_after_timeout : list hevent := [HServerTimeout; HClientData; HAB HDeliver].

Theorem converge_fresh : forall st, valid_n (cl_n (h_c st)) = true ->
  cl_phase (h_c st) = CWaitSyn -> (sv_phase (h_s st) = SWaitSyn \/ sv_phase (h_s st) = SWaitSynAck) ->
  h_ab st = [] -> h_ba st = [] ->
  exists st', hrun st sched_fresh = Some st' /\ cl_phase (h_c st') = CDone /\ sv_phase (h_s st') = SDone /\
              sv_n (h_s st') = cl_n (h_c st) /\ h_ab st' = [] /\ h_ba st' = [].
Proof.
  intros [[cp cn] [sp sn sr] ab ba syns] Hv Hc Hs Hab Hba; cbn in *; subst.
  (* the run is evaluated; it stops where the server tests the proposed n and
     where the client compares the echo with its own n *)
  destruct Hs as [->| ->]; cbn; unfold server_syn; rewrite Hv; cbn; rewrite Z.eqb_refl; cbn;
    eexists; repeat split.
Qed.

Theorem converge_data_resent : forall st,
  cl_phase (h_c st) = CDone -> sv_phase (h_s st) = SWaitSyn -> sv_resent (h_s st) = true ->
  h_ab st = [] -> exists st', hrun st sched_data = Some st' /\ sv_phase (h_s st') = SDone /\ sv_n (h_s st') = sv_n (h_s st).
Proof.
  intros [[cp cn] [sp sn sr] ab ba syns] Hc Hs Hr Hab; cbn in *; subst.
  cbn. eexists; repeat split.
Qed.

Theorem converge_data_waiting_synack : forall st,
  cl_phase (h_c st) = CDone -> sv_phase (h_s st) = SWaitSynAck -> h_ab st = [] ->
  exists st', hrun st sched_data_after_timeout = Some st' /\ sv_phase (h_s st') = SDone /\ sv_n (h_s st') = sv_n (h_s st).
Proof.
  intros [[cp cn] [sp sn sr] ab ba syns] Hc Hs Hab; cbn in *; subst.
  cbn. eexists; repeat split.
Qed.

(* the client is done, the server has seen no SYN, and no SYN is under way *)
Definition inv_stall (st : hsys) : Prop :=
  cl_phase (h_c st) = CDone /\ sv_phase (h_s st) = SWaitSyn /\ sv_resent (h_s st) = false /\
  Forall (fun p => p = HSynAck \/ p = HData) (h_ab st).

Lemma inv_stall_step : forall st ev st', inv_stall st -> hstep st ev = Some st' -> inv_stall st'.
Proof.
  intros [[cp cn] [sp sn sr] ab ba syns] ev st' (Hc & Hs & Hr & Hab) H.
  unfold inv_stall in *; cbn in *; subst.
  (* the done client is inert (HStart, HClientTimeout, HBA) or appends DATA;
     the head of the channel is a SYNACK or DATA, which the waiting server
     ignores (HAB), as it does its own timeout *)
  destruct ev as [| | |o|o|]; cbn in H.
  - injection H as <-. rewrite app_nil_r. auto.
  - injection H as <-. rewrite app_nil_r. auto.
  - injection H as <-. auto.
  - destruct ab as [|p rest]; [discriminate|]. inversion Hab as [|? ? [->| ->] Hrest]; subst;
      destruct o; injection H as <-; cbn; auto.
  - destruct ba as [|p rest]; [discriminate|].
    destruct o; injection H as <-; rewrite ?app_nil_r; auto.
  - injection H as <-. repeat (split; [reflexivity|]). apply Forall_app. auto.
Qed.

(* from such a state no schedule whatever moves the server out of
   (SWaitSyn, resent = false) *)
Theorem stall_forever : forall evs st st', inv_stall st -> hrun st evs = Some st' -> inv_stall st'.
Proof. exact (orun_inv_all hstep inv_stall inv_stall_step). Qed.

(* the state is reachable: a stale SYN toward the client that happens to carry
   the client's n completes the client alone, while the client's own SYN is
   lost *)
Example stale_syn_stall_reachable :
  hrun (hinit 20 [] [HSyn 20]) [HStart; HAB HDrop; HBA HDeliver]
  = Some (mk_hsys (mk_client CDone 20) server_init [HSynAck] [] [20]).
Proof. vm_compute. reflexivity. Qed.

Theorem stale_syn_stall : forall evs st,
  hrun (mk_hsys (mk_client CDone 20) server_init [HSynAck] [] [20]) evs = Some st ->
  sv_phase (h_s st) = SWaitSyn /\ sv_resent (h_s st) = false.
Proof.
  intros evs st Hrun. apply stall_forever in Hrun.
  - destruct Hrun as (_ & Hs & Hr & _). auto.
  - unfold inv_stall; cbn. repeat split; auto.
Qed.

Print Assumptions server_done_valid.
Print Assumptions syns_ab_origin.
Print Assumptions agreement.
Print Assumptions client_done_valid.
Print Assumptions converge_fresh.
Print Assumptions converge_data_resent.
Print Assumptions converge_data_waiting_synack.
Print Assumptions stale_syn_stall_reachable.
Print Assumptions stale_syn_stall.

(* a lost SYNACK with a client that never transmits again: nothing is under
   way in either direction, and only DATA from the client would change that *)
Definition silent_ev (e : hevent) : Prop := e <> HClientData.

Definition inv_silent (st : hsys) : Prop :=
  cl_phase (h_c st) = CDone /\ h_ab st = [] /\ h_ba st = [] /\
  (sv_phase (h_s st) = SWaitSynAck \/ sv_phase (h_s st) = SWaitSyn).

Lemma inv_silent_step : forall st ev st',
  silent_ev ev -> inv_silent st -> hstep st ev = Some st' -> inv_silent st'.
Proof.
  intros [[cp cn] [sp sn sr] ab ba syns] ev st' Hev (Hc & Hab & Hba & Hs) H.
  unfold inv_silent in *; cbn in *; subst.
  (* both channels are empty, so HAB and HBA are refused; the done client is
     inert; a server timeout leads from SWaitSynAck to SWaitSyn *)
  destruct ev; try discriminate; [| | | contradiction]; injection H as <-; cbn; auto.
  destruct Hs as [->| ->]; cbn; auto.
Qed.

Theorem lost_synack_silent_stall : forall evs st st',
  Forall silent_ev evs -> inv_silent st -> hrun st evs = Some st' -> inv_silent st'.
Proof. exact (orun_inv hstep silent_ev inv_silent inv_silent_step). Qed.

Theorem lost_synack_silent_reachable :
  hrun (hinit 20 [] []) [HStart; HAB HDeliver; HBA HDeliver; HAB HDrop]
    = Some (mk_hsys (mk_client CDone 20) (mk_server SWaitSynAck 20 false) [] [] [20]).
Proof. vm_compute. reflexivity. Qed.

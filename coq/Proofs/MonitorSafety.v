(* Safety of the two-direction monitor (Model/GbnMonitor.v):
   - every accepted history keeps the one-direction invariant Inv (GbnInv.v)
     in both directions (mrun_inv);
   - as long as no Send has failed on side x, the messages returned by Recv on
     the other side are a prefix of the messages accepted by Send on x
     (mrun_messages). *)
From LNC Require Import GoLite MessagesGen QueueGen Gbn GbnMonitor.
From LNC Require Import GbnInv GbnSafety Chunking.
Open Scope Z_scope.

Lemma zlist_eqb_eq a : forall b, zlist_eqb a b = true -> a = b.
Proof.
  induction a as [|x a IH]; intros [|y b] H; cbn [zlist_eqb] in H; try discriminate.
  - reflexivity.
  - apply andb_true_iff in H. destruct H as [H1 H2]. apply Z.eqb_eq in H1.
    rewrite (IH _ H2), H1. reflexivity.
Qed.

Lemma zlist_eqb_refl a : zlist_eqb a a = true.
Proof. induction a as [|x a IH]; cbn [zlist_eqb]; [reflexivity|]. rewrite Z.eqb_refl, IH. reflexivity. Qed.

Lemma pkt_eqb_eq p q : pkt_eqb p q = true -> p = q.
Proof.
  destruct p as [s1 f1 g1 l1], q as [s2 f2 g2 l2]. unfold pkt_eqb.
  cbn [PacketData_Seq PacketData_FinalChunk PacketData_IsPing PacketData_Payload].
  rewrite !andb_true_iff. intros [[[H1 H2] H3] H4].
  apply Z.eqb_eq in H1. apply eqb_prop in H2. apply eqb_prop in H3. apply zlist_eqb_eq in H4.
  subst. reflexivity.
Qed.

Lemma app_packets_snoc l p :
  app_packets (l ++ [p]) = app_packets l ++ (if PacketData_IsPing p then [] else [p]).
Proof.
  unfold app_packets. rewrite filter_app. cbn [filter].
  destruct (PacketData_IsPing p); reflexivity.
Qed.

(* Recv: the consumed part of the delivered stream, cut at FinalChunks *)
Inductive parsed : list PacketData -> list (list Z) -> Prop :=
  | parsed_nil : parsed [] []
  | parsed_cons buf m rest msgs :
      take_msg buf [] = Some (m, []) -> parsed rest msgs -> parsed (buf ++ rest) (m :: msgs).

Lemma parsed_app a ms b ms' : parsed a ms -> parsed b ms' -> parsed (a ++ b) (ms ++ ms').
Proof.
  intros Ha Hb. induction Ha as [|buf m rest msgs Ht Hr IH]; [exact Hb|].
  rewrite <- app_assoc. cbn [app]. apply parsed_cons; assumption.
Qed.

Lemma parsed_one buf m : take_msg buf [] = Some (m, []) -> parsed buf [m].
Proof.
  intros H. rewrite <- (app_nil_r buf). apply parsed_cons; [exact H|apply parsed_nil].
Qed.

Lemma take_msg_app buf : forall acc m r tl,
  take_msg buf acc = Some (m, r) -> take_msg (buf ++ tl) acc = Some (m, r ++ tl).
Proof.
  induction buf as [|p buf IH]; intros acc m r tl H; cbn [take_msg app] in *; [discriminate|].
  destruct (PacketData_FinalChunk p).
  - inversion H; reflexivity.
  - apply IH; exact H.
Qed.

Lemma take_msg_pre buf : forall acc m rest,
  take_msg buf acc = Some (m, rest) -> exists pre, buf = pre ++ rest /\ take_msg pre acc = Some (m, []).
Proof.
  induction buf as [|p buf IH]; intros acc m rest H; cbn [take_msg] in H; [discriminate|].
  destruct (PacketData_FinalChunk p) eqn:Ef.
  - inversion H; subst. exists [p]. split; [reflexivity|]. cbn [take_msg]. rewrite Ef. reflexivity.
  - destruct (IH _ _ _ H) as (pre & -> & Hpre). exists (p :: pre). split; [reflexivity|].
    cbn [take_msg]. rewrite Ef. exact Hpre.
Qed.

Definition chunks (c : Z) (msgs : list (list Z)) : list (list Z * bool) :=
  concat (map (split_msg c) msgs).

Lemma chunks_snoc c msgs m : chunks c (msgs ++ [m]) = chunks c msgs ++ split_msg c m.
Proof. unfold chunks. rewrite map_app, concat_app. cbn [map concat]. rewrite app_nil_r. reflexivity. Qed.

(* a parsed prefix of a well-chunked stream returns a prefix of the messages *)
Lemma parsed_prefix c : 0 <= c -> forall consumed returned, parsed consumed returned ->
  forall tl accepted, map proj (consumed ++ tl) = chunks c accepted -> is_prefix returned accepted.
Proof.
  intros Hc consumed returned Hp.
  induction Hp as [|buf m rest msgs Ht Hr IH]; intros tl accepted Hmap.
  - exists accepted. reflexivity.
  - destruct accepted as [|a acc'].
    + unfold chunks in Hmap. cbn [map concat] in Hmap. apply map_eq_nil in Hmap.
      apply app_eq_nil in Hmap. destruct Hmap as [Hmap _]. apply app_eq_nil in Hmap.
      destruct Hmap as [-> _]. discriminate.
    + unfold chunks in Hmap. cbn [map concat] in Hmap.
      pose proof Hmap as Hmap'. apply map_eq_app in Hmap'.
      destruct Hmap' as (p1 & p2 & Hsplit & Hp1 & Hp2).
      pose proof (take_msg_split p1 c a p2 [] Hc Hp1) as H1. cbn [app] in H1.
      pose proof (take_msg_app buf [] m [] (rest ++ tl) Ht) as H2. cbn [app] in H2.
      rewrite <- Hsplit, <- app_assoc, H2 in H1. inversion H1; subst m p2.
      destruct (IH tl acc' Hp2) as (t & ->). exists t. reflexivity.
Qed.

(* direction x -> y: d is the system whose sender is x *)
Definition SndOk (c : Z) (d : dsys) (a : api) : Prop :=
  a_chunk a = c /\
  (a_send_failed a = false ->
   map proj (app_packets (d_sent d)) ++ a_pending a = chunks c (a_accepted a)).

Definition RcvOk (d : dsys) (a : api) : Prop :=
  exists consumed,
    app_packets (d_delivered d) = consumed ++ a_rbuf a /\ parsed consumed (a_returned a).

Definition DirInv (c : Z) (d : dsys) (ax ay : api) : Prop := Inv d /\ SndOk c d ax /\ RcvOk d ay.

Definition cof (cA cB : Z) (x : side) : Z := match x with SA => cA | SB => cB end.

Definition MInv (cA cB : Z) (st : msys) : Prop :=
  DirInv cA (m_dA st) (m_apiA st) (m_apiB st) /\ DirInv cB (m_dB st) (m_apiB st) (m_apiA st).

Lemma MInv_side cA cB x st : MInv cA cB st <->
  DirInv (cof cA cB x) (dsnd st x) (apiof st x) (apiof st (peer x)) /\
  DirInv (cof cA cB (peer x)) (dsnd st (peer x)) (apiof st (peer x)) (apiof st x).
Proof. unfold MInv. destruct x; cbn [cof dsnd apiof peer]; tauto. Qed.

Lemma SndOk_frame c d d' a a' : SndOk c d a ->
  d_sent d' = d_sent d -> a_chunk a' = a_chunk a -> a_send_failed a' = a_send_failed a ->
  a_pending a' = a_pending a -> a_accepted a' = a_accepted a -> SndOk c d' a'.
Proof. unfold SndOk. intros [Hc H] -> -> -> -> ->. split; assumption. Qed.

Lemma RcvOk_frame d d' a a' : RcvOk d a ->
  d_delivered d' = d_delivered d -> a_rbuf a' = a_rbuf a -> a_returned a' = a_returned a -> RcvOk d' a'.
Proof. unfold RcvOk. intros H -> -> ->. exact H. Qed.

Lemma DirInv_quiet c d d' ax ay : DirInv c d ax ay -> Inv d' ->
  d_sent d' = d_sent d /\ d_delivered d' = d_delivered d -> DirInv c d' ax ay.
Proof.
  intros (HI & HS & HR) HI' [Hs Hd]. split; [exact HI'|]. split.
  - apply (SndOk_frame c d d' ax ax HS); auto.
  - apply (RcvOk_frame d d' ay ay HR); auto.
Qed.

(* a step of d that keeps `delivered` (resp. `sent`) concerns the sender's (resp. the receiver's) half only *)
Lemma DirInv_sent c d d' ax ax' ay : DirInv c d ax ay -> Inv d' ->
  d_delivered d' = d_delivered d -> SndOk c d' ax' -> DirInv c d' ax' ay.
Proof.
  intros (_ & _ & HR) HI' Hd HS. split; [exact HI'|]. split; [exact HS|].
  apply (RcvOk_frame d d' ay ay HR); auto.
Qed.

Lemma DirInv_delivered c d d' ax ay ay' : DirInv c d ax ay -> Inv d' ->
  d_sent d' = d_sent d -> RcvOk d' ay' -> DirInv c d' ax ay'.
Proof.
  intros (_ & HS & _) HI' Hs HR. split; [exact HI'|]. split; [|exact HR].
  apply (SndOk_frame c d d' ax ax HS); auto.
Qed.

Lemma SndOk_sendcall c d a s msg : SndOk c d a ->
  SndOk c d (mk_api (a_chunk a) (a_pending a ++ split_msg (a_chunk a) msg) s (a_rbuf a)
               (a_accepted a ++ [msg]) (a_returned a) (a_send_failed a)).
Proof.
  intros [Hc H]. split; cbn [a_chunk a_send_failed a_pending a_accepted]; [exact Hc|].
  intros Hf. rewrite chunks_snoc, app_assoc, (H Hf), Hc. reflexivity.
Qed.

Lemma SndOk_failed c d ch p s r acc ret : ch = c -> SndOk c d (mk_api ch p s r acc ret true).
Proof. intros Hc. split; cbn [a_chunk a_send_failed]; [exact Hc|discriminate]. Qed.

(* x queues the packet p: a ping, or the next chunk of the pending Send (the monitor's test, in its own text);
   the receiving half of x's interface is not concerned *)
Lemma SndOk_new c d d' a a' p v : SndOk c d a -> d_sent d' = d_sent d ++ [set_PacketData_Seq p v] ->
  (if PacketData_IsPing p then Some a
   else match a_pending a with
        | (pl, fin) :: rest =>
            if zlist_eqb pl (PacketData_Payload p) && Bool.eqb fin (PacketData_FinalChunk p)
            then Some (mk_api (a_chunk a) rest (a_sending a) (a_rbuf a) (a_accepted a) (a_returned a) (a_send_failed a))
            else None
        | [] => None
        end) = Some a' ->
  SndOk c d' a' /\ a_rbuf a' = a_rbuf a /\ a_returned a' = a_returned a.
Proof.
  intros [Hc H] Hs Ha. destruct (PacketData_IsPing p) eqn:Eping.
  - injection Ha as <-. repeat split; [exact Hc|]. intros Hf.
    rewrite Hs, app_packets_snoc. cbn [set_PacketData_Seq PacketData_IsPing]. rewrite Eping, app_nil_r. exact (H Hf).
  - destruct (a_pending a) as [|[pl fin] rest] eqn:Epend; [discriminate|].
    destruct (zlist_eqb pl _ && _) eqn:Em; [|discriminate]. injection Ha as <-.
    apply andb_true_iff in Em. destruct Em as [Em1 Em2]. apply zlist_eqb_eq in Em1. apply eqb_prop in Em2. subst pl fin.
    repeat split; cbn [a_chunk a_send_failed a_pending a_accepted]; [exact Hc|]. intros Hf.
    rewrite Hs, app_packets_snoc. cbn [set_PacketData_Seq PacketData_IsPing]. rewrite Eping, map_app, <- app_assoc.
    exact (H Hf).
Qed.

Lemma RcvOk_recv d a m rest ch pe se acc f : RcvOk d a ->
  take_msg (a_rbuf a) [] = Some (m, rest) ->
  RcvOk d (mk_api ch pe se rest acc (a_returned a ++ [m]) f).
Proof.
  intros (consumed & Hd & Hp) Ht. destruct (take_msg_pre _ _ _ _ Ht) as (pre & Hbuf & Hpre).
  exists (consumed ++ pre). cbn [a_rbuf a_returned]. split.
  - rewrite Hd, Hbuf, app_assoc. reflexivity.
  - apply parsed_app; [exact Hp|apply parsed_one; exact Hpre].
Qed.

(* the head p of the DATA channel was handed to the receiver, which accepted it (acc) or not *)
Lemma RcvOk_fwd d d' a p (acc : bool) : RcvOk d a ->
  d_delivered d' = d_delivered d ++ (if acc then [p] else []) ->
  RcvOk d' (if acc && negb (PacketData_IsPing p)
            then mk_api (a_chunk a) (a_pending a) (a_sending a) (a_rbuf a ++ [p])
                        (a_accepted a) (a_returned a) (a_send_failed a)
            else a).
Proof.
  intros (consumed & Hd & Hp) Hdel. exists consumed.
  destruct acc; cbn [andb]; [destruct (PacketData_IsPing p) eqn:Hping; cbn [negb a_rbuf a_returned]|];
    (split; [|exact Hp]); rewrite Hdel, ?app_packets_snoc, ?Hping, ?app_nil_r, Hd, ?app_assoc; reflexivity.
Qed.

Lemma peer_peer x : peer (peer x) = x.
Proof. destruct x; reflexivity. Qed.

Lemma dsnd_set_chan st x c z : dsnd (set_chan st x c) z = dsnd st z.
Proof. destruct x, z; reflexivity. Qed.
Lemma dsnd_set_stage st x v z : dsnd (set_stage st x v) z = dsnd st z.
Proof. destruct x, z; reflexivity. Qed.
Lemma dsnd_set_api st x a z : dsnd (set_api st x a) z = dsnd st z.
Proof. destruct x, z; reflexivity. Qed.
Lemma dsnd_set_dsnd st x d : dsnd (set_dsnd st x d) x = d.
Proof. destruct x; reflexivity. Qed.
Lemma dsnd_set_dsnd_p1 st x d : dsnd (set_dsnd st x d) (peer x) = dsnd st (peer x).
Proof. destruct x; reflexivity. Qed.
Lemma dsnd_set_dsnd_p2 st x d : dsnd (set_dsnd st (peer x) d) x = dsnd st x.
Proof. destruct x; reflexivity. Qed.
Lemma apiof_set_chan st x c z : apiof (set_chan st x c) z = apiof st z.
Proof. destruct x, z; reflexivity. Qed.
Lemma apiof_set_stage st x v z : apiof (set_stage st x v) z = apiof st z.
Proof. destruct x, z; reflexivity. Qed.
Lemma apiof_set_dsnd st x d z : apiof (set_dsnd st x d) z = apiof st z.
Proof. destruct x, z; reflexivity. Qed.
Lemma apiof_set_api st x a : apiof (set_api st x a) x = a.
Proof. destruct x; reflexivity. Qed.
Lemma apiof_set_api_p1 st x a : apiof (set_api st x a) (peer x) = apiof st (peer x).
Proof. destruct x; reflexivity. Qed.
Lemma apiof_set_api_p2 st x a : apiof (set_api st (peer x) a) x = apiof st x.
Proof. destruct x; reflexivity. Qed.

#[export] Hint Rewrite peer_peer dsnd_set_chan dsnd_set_stage dsnd_set_api dsnd_set_dsnd dsnd_set_dsnd_p1
  dsnd_set_dsnd_p2 apiof_set_chan apiof_set_stage apiof_set_dsnd apiof_set_api apiof_set_api_p1
  apiof_set_api_p2 : msys.

Lemma dlift_ok r code k st' : dlift r code k = MOk st' -> exists d', r = DOk d' /\ k d' = MOk st'.
Proof. destruct r as [d| |]; cbn [dlift]; intros H; try discriminate. exists d. split; [reflexivity|exact H]. Qed.

(* view the invariant from side x, both as hypothesis and as goal: D1 is the direction x -> peer x *)
Ltac minv x Hinv :=
  let D1 := fresh "D1" in let D2 := fresh "D2" in
  apply (MInv_side _ _ x) in Hinv; destruct Hinv as [D1 D2];
  apply (MInv_side _ _ x); autorewrite with msys; split.

Section Preservation.
Variables cA cB : Z.
Notation MI := (MInv cA cB).

Lemma MI_set_chan st x c : MI st -> MI (set_chan st x c).
Proof. intros Hinv. minv x Hinv; assumption. Qed.

Lemma MI_set_stage st x v : MI st -> MI (set_stage st x v).
Proof. intros Hinv. minv x Hinv; assumption. Qed.

(* a step of the direction whose sender is z that changes neither history *)
Lemma MI_set_dsnd_quiet st z ev d' : MI st -> dstep (dsnd st z) ev = DOk d' ->
  d_sent d' = d_sent (dsnd st z) /\ d_delivered d' = d_delivered (dsnd st z) -> MI (set_dsnd st z d').
Proof.
  intros Hinv Hstep Hh. minv z Hinv; [|assumption].
  exact (DirInv_quiet _ _ _ _ _ D1 (dstep_inv _ _ _ (proj1 D1) Hstep) Hh).
Qed.

Lemma mstep_sendcall st x msg st' : MI st -> mstep st (MSendCall x msg) = MOk st' -> MI st'.
Proof.
  intros Hinv H. unfold mstep in H. cbv zeta in H.
  destruct (a_sending (apiof st x)); [discriminate|]. injection H as <-.
  minv x Hinv; [|exact D2].
  apply (DirInv_sent _ _ _ _ _ _ D1 (proj1 D1) eq_refl), SndOk_sendcall, D1.
Qed.

Lemma mstep_sendret st x ok st' : MI st -> mstep st (MSendRet x ok) = MOk st' -> MI st'.
Proof.
  intros Hinv H. unfold mstep in H. cbv zeta in H.
  destruct (negb (a_sending (apiof st x))); [discriminate|]. destruct ok.
  - destruct (1 <? len (a_pending (apiof st x))); [discriminate|]. injection H as <-.
    minv x Hinv; assumption.
  - injection H as <-. minv x Hinv; [|exact D2].
    apply (DirInv_sent _ _ _ _ _ _ D1 (proj1 D1) eq_refl), SndOk_failed, D1.
Qed.

Lemma mstep_recvret st x r st' : MI st -> mstep st (MRecvRet x r) = MOk st' -> MI st'.
Proof.
  intros Hinv H. unfold mstep in H. cbv zeta in H.
  destruct r as [msg|]; [|injection H as <-; exact Hinv].
  destruct (take_msg (a_rbuf (apiof st x)) []) as [[m rest]|] eqn:Et; [|discriminate].
  destruct (zlist_eqb m msg) eqn:Em; cbn [negb] in H; [|discriminate].
  apply zlist_eqb_eq in Em. subst msg. injection H as <-.
  minv x Hinv; [exact D1|].
  apply (DirInv_delivered _ _ _ _ _ _ D2 (proj1 D2) eq_refl), RcvOk_recv; [apply D2|exact Et].
Qed.

(* DATA transmitted by x: a new packet or a retransmission *)
Lemma mstep_tx_data st x b p st' : MI st -> Deserialize b = Ok (Some (Message_PacketData p)) ->
  mstep st (MTx x b) = MOk st' -> MI st'.
Proof.
  intros Hinv HD H. unfold mstep in H. rewrite HD in H. cbv zeta in H.
  destruct (PacketData_Seq p =? queue_sequenceTop (d_q (dsnd st x))).
  - destruct (if PacketData_IsPing p then _ else _) as [a'|] eqn:Ea; [|discriminate].
    apply dlift_ok in H. destruct H as (d' & Hstep & H).
    destruct (lastn_pkt d') as [p'|]; [|discriminate].
    destruct (pkt_eqb p p'); [|discriminate]. injection H as <-.
    destruct (dstep_hist _ _ _ Hstep) as (_ & Hs & Hd & _).
    minv x Hinv; destruct (SndOk_new _ _ _ _ _ _ _ (proj1 (proj2 D1)) Hs Ea) as (HS & Hbuf & Hret).
    + exact (DirInv_sent _ _ _ _ _ _ D1 (dstep_inv _ _ _ (proj1 D1) Hstep) Hd HS).
    + apply (DirInv_delivered _ _ _ _ _ _ D2 (proj1 D2) eq_refl), (RcvOk_frame _ _ _ _ (proj2 (proj2 D2)) eq_refl);
        assumption.
  - apply dlift_ok in H. destruct H as (d' & Hstep & H).
    destruct (lastn_pkt d') as [p'|]; [|discriminate].
    destruct (pkt_eqb p p'); [|discriminate]. injection H as <-.
    exact (MI_set_chan _ _ _ (MI_set_dsnd_quiet _ _ _ _ Hinv Hstep (proj2 (dstep_hist _ _ _ Hstep)))).
Qed.

(* a reply (ACK / NACK) transmitted by x belongs to the direction peer x -> x *)
Lemma mstep_tx_reply st x code ch st' : MI st ->
  dlift (dstep (dsnd st (peer x)) DReply) code
    (fun d' => MOk (set_chan (set_dsnd st (peer x) d') x ch)) = MOk st' -> MI st'.
Proof.
  intros Hinv H. apply dlift_ok in H. destruct H as (d' & Hstep & H). injection H as <-.
  exact (MI_set_chan _ _ _ (MI_set_dsnd_quiet _ _ _ _ Hinv Hstep (proj2 (dstep_hist _ _ _ Hstep)))).
Qed.

Lemma mstep_tx st x b st' : MI st -> mstep st (MTx x b) = MOk st' -> MI st'.
Proof.
  intros Hinv H. destruct (Deserialize b) as [[[p|a|s|v|f|sa]|]|] eqn:HD;
    [exact (mstep_tx_data st x b p st' Hinv HD H)|unfold mstep, drcv in H; rewrite HD in H; cbv zeta in H..];
    (* handshake packets and undecodable bytes only enter the channel *)
    try (injection H as <-; apply MI_set_chan; exact Hinv).
  - destruct (d_pend (dsnd st (peer x))) as [[a'|v']|]; try discriminate.
    destruct (PacketACK_Seq a =? a'); [|discriminate].
    exact (mstep_tx_reply _ _ _ _ _ Hinv H).
  - destruct (d_pend (dsnd st (peer x))) as [[a'|v']|]; try discriminate.
    destruct (PacketNACK_Seq v =? v'); [|discriminate].
    exact (mstep_tx_reply _ _ _ _ _ Hinv H).
  - discriminate.
Qed.

Lemma mstep_ch st x o st' : MI st -> mstep st (MCh x o) = MOk st' -> MI st'.
Proof.
  intros Hinv H. unfold mstep in H. unfold drcv in H. cbv zeta in H.
  destruct (chan st x) as [|tg rest]; [discriminate|].
  destruct (stage st (peer x)); [discriminate|].
  pose proof (MI_set_chan st x (after_op o tg rest) Hinv) as Hinv1.
  destruct o; [injection H as <-; apply MI_set_stage; exact Hinv1..|]. cbn [after_op] in *.
  destruct tg as [| |raw]; [| |injection H as <-; exact Hinv1];
    apply dlift_ok in H; destruct H as (d' & Hstep & H); injection H as <-;
    rewrite <- (dsnd_set_chan st x rest) in Hstep; apply (MI_set_dsnd_quiet _ _ _ _ Hinv1 Hstep).
  - destruct (dstep_hist _ _ _ Hstep) as (_ & Hs & _ & Hd). exact (conj Hs (Hd eq_refl)).
  - exact (proj2 (dstep_hist _ _ _ Hstep)).
Qed.

Lemma mstep_rx st y b st' : MI st -> mstep st (MRx y b) = MOk st' -> MI st'.
Proof.
  intros Hinv H. unfold mstep in H. unfold drcv in H. cbv zeta in H.
  destruct (stage st y) as [[tg o]|]; [|discriminate].
  pose proof (MI_set_stage st y None Hinv) as Hinv1.
  destruct tg as [| |raw].
  - (* DATA of the direction peer y -> y arrives at y *)
    destruct (d_fwd (dsnd st (peer y))) as [|it rest] eqn:Efwd; [discriminate|].
    destruct (PacketData_Serialize (f_pkt it)) as [[bytes|]|]; try discriminate.
    destruct (negb (zlist_eqb bytes b)); [discriminate|].
    apply dlift_ok in H. destruct H as (d' & Hstep & H). injection H as <-.
    destruct (dstep_hist _ _ _ Hstep) as (_ & Hs & Hd & _). rewrite Efwd in Hd.
    minv y Hinv; [destruct (_ && _); exact D1|].
    apply (DirInv_delivered _ _ _ _ _ _ D2 (dstep_inv _ _ _ (proj1 D2) Hstep) Hs).
    apply (RcvOk_fwd (dsnd st (peer y))); [apply D2|exact Hd].
  - (* ACK / NACK of the direction y -> peer y arrives at y *)
    destruct (d_bwd (dsnd st y)) as [|it rest] eqn:Ebwd; [discriminate|].
    destruct (negb (zlist_eqb (ctrl_bytes (b_ctrl it)) b)); [discriminate|].
    apply dlift_ok in H. destruct H as (d' & Hstep & H). injection H as <-.
    rewrite <- (dsnd_set_stage st y None) in Hstep.
    exact (MI_set_dsnd_quiet _ _ _ _ Hinv1 Hstep (proj2 (dstep_hist _ _ _ Hstep))).
  - destruct (zlist_eqb raw b); [|discriminate]. injection H as <-. exact Hinv1.
Qed.

Lemma mstep_rx_refused st y b st' : MI st -> mstep st (MRxRefused y b) = MOk st' -> MI st'.
Proof.
  intros Hinv H. unfold mstep in H. unfold drcv in H. cbv zeta in H.
  destruct (stage st y) as [[tg o]|]; [|discriminate].
  pose proof (MI_set_stage st y None Hinv) as Hinv1.
  destruct tg as [| |raw]; try discriminate.
  destruct (d_fwd (dsnd st (peer y))) as [|it rest] eqn:Efwd; [discriminate|].
  destruct (PacketData_Serialize (f_pkt it)) as [[bytes|]|]; try discriminate.
  destruct (negb (zlist_eqb bytes b)); [discriminate|].
  destruct (negb _); [discriminate|].
  destruct o; [|injection H as <-; exact Hinv1..].
  apply dlift_ok in H. destruct H as (d' & Hstep & H). injection H as <-.
  rewrite <- (dsnd_set_stage st y None) in Hstep.
  destruct (dstep_hist _ _ _ Hstep) as (_ & Hs & _ & Hd).
  exact (MI_set_dsnd_quiet _ _ _ _ Hinv1 Hstep (conj Hs (Hd eq_refl))).
Qed.

Lemma mstep_snap st x n s base top recv st' : MI st -> mstep st (MSnap x n s base top recv) = MOk st' -> MI st'.
Proof.
  intros Hinv H. unfold mstep in H. cbv zeta in H.
  destruct (_ && _); [|discriminate].
  destruct (d_pend (drcv st x)) as [[a|v]|].
  - injection H as <-; exact Hinv.
  - destruct (recv =? _); [|discriminate]. injection H as <-; exact Hinv.
  - destruct (recv =? _); [|discriminate]. injection H as <-; exact Hinv.
Qed.

Lemma mstep_pres st ev st' : MI st -> mstep st ev = MOk st' -> MI st'.
Proof.
  intros Hinv H. destruct ev.
  - exact (mstep_sendcall _ _ _ _ Hinv H).
  - exact (mstep_sendret _ _ _ _ Hinv H).
  - injection H as <-; exact Hinv.
  - exact (mstep_recvret _ _ _ _ Hinv H).
  - exact (mstep_tx _ _ _ _ Hinv H).
  - exact (mstep_ch _ _ _ _ Hinv H).
  - exact (mstep_rx _ _ _ _ Hinv H).
  - exact (mstep_rx_refused _ _ _ _ Hinv H).
  - exact (mstep_snap _ _ _ _ _ _ _ _ Hinv H).
Qed.

Lemma mrun_all_pres evs : forall st st', MI st -> mrun_all st evs = Some st' -> MI st'.
Proof.
  induction evs as [|ev evs IH]; intros st st' Hinv H; cbn [mrun_all] in H.
  - injection H as <-; exact Hinv.
  - destruct (mstep st ev) as [st1|code] eqn:E; [|discriminate].
    exact (IH _ _ (mstep_pres _ _ _ Hinv E) H).
Qed.

End Preservation.

Lemma minit_inv n cA cB : 1 <= n <= 254 -> MInv cA cB (minit n cA cB).
Proof.
  intros Hn. pose proof (dinit_inv n Hn) as HI.
  assert (HR : forall c, RcvOk (dinit n) (api_init c)).
  { intros c. exists []. split; [reflexivity|apply parsed_nil]. }
  assert (HS : forall c, SndOk c (dinit n) (api_init c)).
  { intros c. split; [reflexivity|]. intros _. reflexivity. }
  unfold MInv, DirInv, minit. cbn [m_dA m_dB m_apiA m_apiB].
  split; (split; [exact HI|split; [apply HS|apply HR]]).
Qed.

Lemma mrun_minv n cA cB evs st : 1 <= n <= 254 ->
  mrun_all (minit n cA cB) evs = Some st -> MInv cA cB st.
Proof. intros Hn H. exact (mrun_all_pres cA cB evs _ _ (minit_inv n cA cB Hn) H). Qed.

Theorem mrun_inv n cA cB evs st : 1 <= n <= 254 ->
  mrun_all (minit n cA cB) evs = Some st -> Inv (m_dA st) /\ Inv (m_dB st).
Proof.
  intros Hn H. destruct (mrun_minv n cA cB evs st Hn H) as [(HA & _) (HB & _)].
  split; assumption.
Qed.

Lemma app_packets_firstn k l : exists t, app_packets l = app_packets (firstn k l) ++ t.
Proof.
  exists (app_packets (skipn k l)). unfold app_packets.
  rewrite <- filter_app, firstn_skipn. reflexivity.
Qed.

Lemma DirInv_messages c d ax ay : 0 <= c -> DirInv c d ax ay ->
  a_send_failed ax = false -> is_prefix (a_returned ay) (a_accepted ax).
Proof.
  intros Hc (HI & [Hch HS] & (consumed & Hdel & Hp)) Hf.
  specialize (HS Hf).
  destruct (app_packets_firstn (Z.to_nat (d_R d)) (d_sent d)) as (t & Ht).
  rewrite <- (i_prefix d HI), Hdel in Ht.
  apply (parsed_prefix c Hc consumed (a_returned ay) Hp
           ((a_rbuf ay ++ t) ++ chunk_pkts (a_pending ax)) (a_accepted ax)).
  rewrite <- HS, Ht. rewrite !map_app, proj_chunk_pkts, <- !app_assoc. reflexivity.
Qed.

Theorem mrun_messages n cA cB evs st : 1 <= n <= 254 -> 0 <= cA -> 0 <= cB ->
  mrun_all (minit n cA cB) evs = Some st ->
  (a_send_failed (m_apiA st) = false -> is_prefix (a_returned (m_apiB st)) (a_accepted (m_apiA st))) /\
  (a_send_failed (m_apiB st) = false -> is_prefix (a_returned (m_apiA st)) (a_accepted (m_apiB st))).
Proof.
  intros Hn HcA HcB H. destruct (mrun_minv n cA cB evs st Hn H) as [HA HB]. split.
  - exact (DirInv_messages cA _ _ _ HcA HA).
  - exact (DirInv_messages cB _ _ _ HcB HB).
Qed.

(* the packet the monitor compares against the transmitted one is the queued one:
   an accepted MTx of new DATA extends `sent` by exactly the transmitted packet *)
Lemma tx_new_sent d p d' p' : dstep d (DNew p) = DOk d' -> lastn_pkt d' = Some p' -> pkt_eqb p p' = true ->
  d_sent d' = d_sent d ++ [p].
Proof.
  intros Hstep Hl He. destruct (dstep_hist _ _ _ Hstep) as (_ & Hs & _ & Hf).
  unfold lastn_pkt in Hl. rewrite Hf, rev_app_distr in Hl. apply pkt_eqb_eq in He. subst p'.
  injection Hl as Hp. rewrite Hs. congruence.
Qed.

(* non-vacuity: A sends [1;2;3] with maxChunkSize 2: two DATA packets, the first one duplicated by the channel
   (the duplicate only leaves a pending NACK at B, which the ACK of the second packet replaces: no NACK is
   transmitted); B's Recv returns the message; all events accepted *)
Definition example_events : list mevent :=
  [ MSendCall SA [1; 2; 3];
    MTx SA [2; 0; 0; 0; 1; 2]; MCh SA DeliverKeep; MRx SB [2; 0; 0; 0; 1; 2];
    MTx SB [3; 0]; MCh SA Deliver; MRx SB [2; 0; 0; 0; 1; 2];
    MTx SA [2; 1; 1; 0; 3]; MSendRet SA true;
    MCh SB Deliver; MRx SA [3; 0];
    MCh SA Deliver; MRx SB [2; 1; 1; 0; 3];
    MRecvCall SB; MRecvRet SB (Some [1; 2; 3]) ].

Example example_events_ok :
  match mrun_all (minit 2 2 0) example_events with
  | Some st => a_returned (m_apiB st) = [[1; 2; 3]] /\ a_accepted (m_apiA st) = [[1; 2; 3]] /\
               a_send_failed (m_apiA st) = false /\ d_B (m_dA st) = 1 /\ d_R (m_dA st) = 2
  | None => False
  end.
Proof. vm_compute. repeat split; reflexivity. Qed.

Print Assumptions mrun_inv.
Print Assumptions mrun_messages.

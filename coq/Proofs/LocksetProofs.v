(* C18: the static lock discipline of Model/Lockset.v is sound for its interleaving model.  The proof, and
   that of LockOrderProofs.v, goes through `tracks`: in every reachable state the remaining code of each thread
   satisfies the static predicate with exactly the mutexes the thread owns. *)
From Coq Require Import List Arith Lia.
Import ListNotations.
From LNC Require Import Lockset.

Lemma set_nth_length : forall A (l : list A) i v, length (set_nth l i v) = length l.
Proof.
  induction l as [|h t IH]; intros [|i] v; simpl; auto.
Qed.

Lemma nth_set_nth_eq : forall A (l : list A) i v d,
  i < length l -> nth i (set_nth l i v) d = v.
Proof.
  induction l as [|h t IH]; intros [|i] v d Hlt; simpl in *; try lia; auto.
  apply IH. lia.
Qed.

Lemma nth_set_nth_neq : forall A (l : list A) i j v d,
  i <> j -> nth j (set_nth l i v) d = nth j l d.
Proof.
  induction l as [|h t IH]; intros [|i] [|j] v d Hne; simpl; auto;
    try congruence; try (apply IH; congruence).
Qed.

Lemma set_owner_eq : forall o m v, set_owner o m v m = v.
Proof. intros. unfold set_owner. now rewrite Nat.eqb_refl. Qed.

Lemma set_owner_neq : forall o m v x, x <> m -> set_owner o m v x = o x.
Proof.
  intros o m v x H. unfold set_owner.
  destruct (Nat.eqb_spec x m); congruence.
Qed.

Definition enabled (a : action) (k : nat) (o : nat -> option nat) : Prop :=
  match a with
  | ALock m => o m = None
  | AUnlock m => o m = Some k
  | AAccess _ _ => True
  end.

Definition owner_after (a : action) (k : nat) (o : nat -> option nat) : nat -> option nat :=
  match a with
  | ALock m => set_owner o m (Some k)
  | AUnlock m => set_owner o m None
  | AAccess _ _ => o
  end.

Lemma step_enabled : forall st k a rest,
  nth_error (threads st) k = Some (a :: rest) -> enabled a k (owner st) ->
  step st k = Some (mk_state (set_nth (threads st) k rest) (owner_after a k (owner st))).
Proof.
  intros st k a rest Hk En. unfold step. rewrite Hk.
  destruct a; simpl in *; rewrite ?En, ?Nat.eqb_refl; reflexivity.
Qed.

Lemma step_blocked : forall st k a rest,
  nth k (threads st) [] = a :: rest -> step st k = None -> ~ enabled a k (owner st).
Proof.
  intros st k a rest Hk Hs En. destruct (nth_error (threads st) k) as [t|] eqn:E.
  - rewrite (nth_error_nth _ _ _ E) in Hk. subst t. rewrite (step_enabled _ _ _ _ E En) in Hs. discriminate.
  - apply nth_error_None in E. rewrite nth_overflow in Hk by exact E. discriminate.
Qed.

Lemma step_inv : forall st k st', step st k = Some st' ->
  exists a rest, nth_error (threads st) k = Some (a :: rest) /\ enabled a k (owner st) /\
    st' = mk_state (set_nth (threads st) k rest) (owner_after a k (owner st)).
Proof.
  intros st k st' Hs. unfold step in Hs.
  destruct (nth_error (threads st) k) as [[|a rest]|]; try discriminate.
  exists a, rest. split; [reflexivity|].
  destruct a as [m|m|f w]; simpl.
  - destruct (owner st m); [discriminate|]. now inversion Hs.
  - destruct (owner st m) as [j|]; [|discriminate].
    destruct (Nat.eqb_spec j k); [|discriminate]. subst j. now inversion Hs.
  - now inversion Hs.
Qed.

Lemma step_length : forall st k st',
  step st k = Some st' -> length (threads st') = length (threads st).
Proof.
  intros st k st' Hs. destruct (step_inv _ _ _ Hs) as (a & rest & _ & _ & ->).
  apply set_nth_length.
Qed.

Lemma reachable_invariant : forall (I : state -> Prop) init,
  I init -> (forall st k st', I st -> step st k = Some st' -> I st') ->
  forall st, reachable init st -> I st.
Proof. intros I init H0 HS st Hr. induction Hr; eauto. Qed.

Lemma reachable_length : forall init st,
  reachable init st -> length (threads st) = length (threads init).
Proof.
  intros init. apply reachable_invariant; [reflexivity|].
  intros st k st' IH Hs. now rewrite (step_length _ _ _ Hs).
Qed.

(* `disciplined` and LockOrder.ordered walk a thread with the list of mutexes it holds: *)
Definition after (a : action) (held : list nat) : list nat :=
  match a with
  | ALock m => m :: held
  | AUnlock m => remove Nat.eq_dec m held
  | AAccess _ _ => held
  end.

Definition holds (o : nat -> option nat) (i : nat) (held : list nat) : Prop :=
  forall m, In m held <-> o m = Some i.

Lemma in_remove_iff : forall (l : list nat) x m,
  In x (remove Nat.eq_dec m l) <-> In x l /\ x <> m.
Proof.
  intros l x m. split; [apply in_remove|]. intros [H1 H2]. now apply in_in_remove.
Qed.

(* the walk and the run agree: a step of thread k takes its list from held to `after a held` ... *)
Lemma holds_after : forall a k o held,
  enabled a k o -> holds o k held -> holds (owner_after a k o) k (after a held).
Proof.
  intros a k o held En H x. specialize (H x).
  destruct a as [m|m|f w]; simpl in *; [| rewrite in_remove_iff |];
    try (destruct (Nat.eq_dec x m) as [->|Hx]; rewrite ?set_owner_eq, ?set_owner_neq by exact Hx);
    intuition congruence.
Qed.

(* ... and leaves the lists of the other threads as they are *)
Lemma holds_other : forall a k o i held,
  i <> k -> enabled a k o -> holds o i held -> holds (owner_after a k o) i held.
Proof.
  intros a k o i held Hne En H x. specialize (H x).
  destruct a as [m|m|f w]; simpl in *;
    try (destruct (Nat.eq_dec x m) as [->|Hx]; rewrite ?set_owner_eq, ?set_owner_neq by exact Hx);
    intuition congruence.
Qed.

(* the remaining code of every thread satisfies P (disciplined, ordered) with exactly the mutexes the thread
   currently owns.  An index with no thread is read as a thread that has finished, so what it may own is what
   `P _ []` allows: for `ordered`, nothing *)
Definition tracks (P : list nat -> thread -> Prop) (st : state) : Prop :=
  forall i, exists held, P held (nth i (threads st) []) /\ holds (owner st) i held.

Lemma tracks_at : forall P st i t, tracks P st -> nth_error (threads st) i = Some t ->
  exists held, P held t /\ holds (owner st) i held.
Proof. intros P st i t H Hn. rewrite <- (nth_error_nth _ _ [] Hn). apply H. Qed.

Lemma tracks_init : forall (P : list nat -> thread -> Prop) prog,
  P [] [] -> Forall (P []) prog -> tracks P (init_state prog).
Proof.
  intros P prog H0 HF i. exists []. simpl. split.
  - destruct (nth_in_or_default i prog []) as [Hin| ->]; [|exact H0].
    rewrite Forall_forall in HF. apply HF, Hin.
  - intros m. split; [contradiction | discriminate].
Qed.

Lemma tracks_step : forall P : list nat -> thread -> Prop,
  (forall a held rest, P held (a :: rest) -> P (after a held) rest) ->
  forall st k st', tracks P st -> step st k = Some st' -> tracks P st'.
Proof.
  intros P HP st k st' Hinv Hs i.
  destruct (step_inv _ _ _ Hs) as (a & rest & Hk & En & ->). simpl.
  destruct (Hinv i) as (held & Hd & Ho).
  destruct (Nat.eq_dec k i) as [<-|E].
  - rewrite (nth_error_nth _ _ _ Hk) in Hd.
    rewrite nth_set_nth_eq by (apply nth_error_Some; congruence).
    exists (after a held). split; [now apply HP | now apply holds_after].
  - rewrite nth_set_nth_neq by assumption.
    exists held. split; [assumption | apply holds_other; auto].
Qed.

Lemma tracks_reachable : forall (P : list nat -> thread -> Prop) prog,
  (forall a held rest, P held (a :: rest) -> P (after a held) rest) ->
  P [] [] -> Forall (P []) prog -> forall st, reachable (init_state prog) st -> tracks P st.
Proof.
  intros P prog HP H0 HF. apply reachable_invariant; [now apply tracks_init | now apply tracks_step].
Qed.

Lemma disciplined_after : forall lock_of a held rest,
  disciplined lock_of held (a :: rest) -> disciplined lock_of (after a held) rest.
Proof. intros lock_of [m|m|f w]; simpl; tauto. Qed.

(* two threads poised at accesses to f would both hold lock_of f *)
Lemma tracks_no_race : forall lock_of st, tracks (disciplined lock_of) st -> ~ race st.
Proof.
  intros lock_of st Hinv (i & j & f & w1 & w2 & r1 & r2 & Hne & Hi & Hj & _).
  destruct (tracks_at _ _ _ _ Hinv Hi) as (hi & [Hini _] & Hoi).
  destruct (tracks_at _ _ _ _ Hinv Hj) as (hj & [Hinj _] & Hoj).
  apply Hoi in Hini. apply Hoj in Hinj. congruence.
Qed.

Theorem lockset_sound : forall (lock_of : nat -> nat) (prog : list thread),
  Forall (disciplined lock_of []) prog ->
  forall st, reachable (init_state prog) st -> ~ race st.
Proof.
  intros lock_of prog HF st Hr. apply (tracks_no_race lock_of).
  revert st Hr. apply tracks_reachable; [apply disciplined_after | exact I | assumption].
Qed.

Definition ex_prog : list thread :=
  [ [ALock 0; AAccess 7 true; AUnlock 0];
    [ALock 0; AAccess 7 false; AUnlock 0] ].

Example ex_prog_disciplined : Forall (disciplined (fun _ => 0) []) ex_prog.
Proof. repeat constructor; cbv; tauto. Qed.

Example ex_prog_race_free :
  forall st, reachable (init_state ex_prog) st -> ~ race st.
Proof. exact (lockset_sound (fun _ => 0) ex_prog ex_prog_disciplined). Qed.

(* the example program can actually run: thread 0 locks, is poised at its write,
   and thread 1 is blocked (so the reachable set is not just the initial state) *)
Example ex_prog_runs :
  exists st, step (init_state ex_prog) 0 = Some st /\
             nth_error (threads st) 0 = Some [AAccess 7 true; AUnlock 0] /\
             step st 1 = None.
Proof. eexists. split; [reflexivity|]. split; reflexivity. Qed.

Definition bad_prog : list thread := [ [AAccess 7 true]; [AAccess 7 false] ].

(* without the lock, the initial state is already a race ... *)
Example bad_prog_race : race (init_state bad_prog).
Proof.
  exists 0, 1, 7, true, false, [], []. simpl.
  repeat split; auto.
Qed.

(* ... and indeed the premise of the theorem fails for it, for every lock_of *)
Example bad_prog_not_disciplined : forall lock_of,
  ~ Forall (disciplined lock_of []) bad_prog.
Proof.
  intros lock_of HF.
  apply (lockset_sound lock_of bad_prog HF (init_state bad_prog)).
  - constructor.
  - exact bad_prog_race.
Qed.

Print Assumptions lockset_sound.
Print Assumptions ex_prog_race_free.
Print Assumptions bad_prog_race.

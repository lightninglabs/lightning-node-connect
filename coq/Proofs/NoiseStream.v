(* The stream adapters of Model/Noise.v.
   C15: a Read never returns more than the buffer, no byte is lost or reordered, progress; Write chunking.
   C16: io.ReadFull over a fragmenting transport; Flush with partial writes.
   The specifications have one form: what comes out ++ what is kept = what there was, and the exact number
   of bytes that come out. *)
From Coq Require Import ZArith List Lia.
From LNC Require Import Noise NoiseRecord.
Import ListNotations.
Open Scope Z_scope.

Lemma len_firstn : forall A n (l : list A), len (firstn (Z.to_nat n) l) = Z.max 0 (Z.min n (len l)).
Proof. intros; unfold len; rewrite firstn_length; lia. Qed.

Lemma len_skipn : forall A n (l : list A), len (skipn (Z.to_nat n) l) = len l - Z.max 0 (Z.min n (len l)).
Proof. intros; unfold len; rewrite skipn_length; lia. Qed.

Lemma len_nil_iff : forall A (l : list A), len l = 0 <-> l = [].
Proof.
  intros A l; split; intro H; [|subst; reflexivity].
  destruct l as [|x l]; [reflexivity|]. unfold len in H; cbn [length] in H; lia.
Qed.

Lemma len_pos : forall A (l : list A), l <> [] <-> 1 <= len l.
Proof. intros A l. pose proof (len_nonneg _ l). rewrite <- len_nil_iff. lia. Qed.

Lemma len_repeat : forall A (x : A) n, 0 <= n -> len (repeat x (Z.to_nat n)) = n.
Proof. intros A x n Hn. unfold len. rewrite repeat_length. lia. Qed.

(* C15: one Read call.  Both readers hand out the front of the current record (what is left of the last
   one, else the next one) and keep its rest; they differ in how much they take.
   The `let '(..)` specifications of this file are used as in NoiseRecord.v: `pose proof (X_spec ..) as S`, then
   `rewrite H in S` with the known result H of the call, or `destruct` of the call. *)
Lemma grpc_read_spec : forall pending src b, 0 <= b ->
  let '(out, pending', src') := grpc_read pending src b in
  out ++ pending' ++ concat src' = pending ++ concat src
  /\ len out = Z.min b (match pending with [] => Z.min grpc_cap (len (hd [] src)) | _ => len pending end).
Proof.
  intros pending src b Hb. unfold grpc_read.
  destruct pending as [|x pending0]; [destruct src as [|m rest]|].
  - split; [reflexivity | unfold grpc_cap; cbn; lia].
  - cbn [concat app hd]. rewrite app_assoc, firstn_skipn, len_firstn.
    pose proof (len_nonneg _ m). unfold zmin3, grpc_cap. split; [reflexivity | lia].
  - cbv iota. set (pending := x :: pending0). rewrite app_assoc, firstn_skipn, len_firstn.
    pose proof (len_nonneg _ pending). split; [reflexivity | lia].
Qed.

Lemma concat_drop_empty : forall src, concat (drop_empty src) = concat src.
Proof.
  induction src as [|m src IH]; [reflexivity|].
  destruct m as [|x m]; [cbn [drop_empty concat app]; assumption | reflexivity].
Qed.

Lemma buf_read_spec : forall pending src b, 0 <= b ->
  let '(out, pending', src') := buf_read pending src b in
  out ++ pending' ++ concat src' = pending ++ concat src
  /\ len out = Z.min b (match pending with [] => len (hd [] (drop_empty src)) | _ => len pending end).
Proof.
  intros pending src b Hb. unfold buf_read.
  destruct pending as [|x pending0].
  - cbn [app]. rewrite <- (concat_drop_empty src). destruct (drop_empty src) as [|m rest].
    + split; [reflexivity | cbn; lia].
    + cbn [concat hd]. rewrite app_assoc, firstn_skipn, len_firstn.
      pose proof (len_nonneg _ m). split; [reflexivity | lia].
  - cbv iota. set (pending := x :: pending0). rewrite app_assoc, firstn_skipn, len_firstn.
    pose proof (len_nonneg _ pending). split; [reflexivity | lia].
Qed.

(* `len out <= grpc_cap` does not hold for every Read.  The 32 KiB cap is applied only when a fresh record
   is taken; the left-over branch copies min(bufsize, len pending) bytes, and the left-over of a 65535-byte
   record after a small read is larger than 32 KiB.  This is what NoiseGrpcConn.Read does
   (n := copy(b, c.nextMsg)). *)
Example grpc_cap_counterexample :
  (let '(out, _, _) := grpc_read (repeat 0 (Z.to_nat 40000)) [] 40000 in len out <=? grpc_cap) = false.
Proof.
  pose proof (grpc_read_spec (repeat 0 (Z.to_nat 40000)) [] 40000 ltac:(lia)) as S.
  destruct (grpc_read _ [] 40000) as [[out p'] s']. destruct S as [_ Hl].
  (* the left-over is not empty, so its whole length counts *)
  assert (Hp : len (repeat 0 (Z.to_nat 40000)) = 40000) by (apply len_repeat; lia).
  destruct (repeat 0 (Z.to_nat 40000)); [discriminate Hp|].
  apply Z.leb_gt. unfold grpc_cap. lia.
Qed.

(* the same reached from the empty state by two Reads on one record: Read(1), then a Read with room for
   everything returns all the rest, however long it is *)
Lemma grpc_cap_exceeded_after_small_read : forall m, 2 <= len m ->
  map (fun o => len o) (reads grpc_read [] [m] [1; len m]) = [1; len m - 1].
Proof.
  intros m Hm. cbn [reads]. unfold grpc_read at 1. cbv iota.
  (* the first Read takes one byte of the fresh record and keeps the rest, which is not empty *)
  set (p1 := skipn _ m).
  assert (Hp : len p1 = len m - 1) by (subst p1; rewrite len_skipn; unfold zmin3, grpc_cap; lia).
  pose proof (grpc_read_spec p1 [] (len m) ltac:(lia)) as S2.
  destruct (grpc_read p1 [] (len m)) as [[o2 p2] s2]. destruct S2 as [_ L2].
  cbn [map]. rewrite len_firstn, L2. destruct p1; [cbn in Hp; lia|].
  unfold zmin3, grpc_cap. f_equal; [|f_equal]; lia.
Qed.

Example grpc_cap_counterexample_reachable :
  (let outs := reads grpc_read [] [repeat 7 (Z.to_nat 65535)] [1; 65535] in
   map (fun o => len o) outs) = [1; 65534].
Proof.
  pose proof (grpc_cap_exceeded_after_small_read (repeat 7 (Z.to_nat 65535))) as H.
  rewrite len_repeat in H by lia. apply H. lia.
Qed.

Theorem grpc_read_cap_false :
  ~ (forall pending src b out pending' src', 0 <= b ->
       grpc_read pending src b = (out, pending', src') -> len out <= grpc_cap).
Proof.
  intro H.
  pose proof grpc_cap_counterexample as C.
  destruct (grpc_read (repeat 0 (Z.to_nat 40000)) [] 40000) as [[out p'] s'] eqn:E.
  assert (Hb : 0 <= 40000) by lia.
  specialize (H _ _ _ _ _ _ Hb E).
  apply Z.leb_gt in C. lia.
Qed.

(* what does hold: the cap is kept when a fresh record is taken, and whenever the left-over itself is at
   most 32 KiB *)
Theorem grpc_read_step : forall pending src b out pending' src', 0 <= b ->
  grpc_read pending src b = (out, pending', src') ->
  out ++ pending' ++ concat src' = pending ++ concat src /\ len out <= b
  /\ (pending = [] \/ len pending <= grpc_cap -> len out <= grpc_cap)
  /\ len out <= Z.max grpc_cap (len pending).
Proof.
  intros pending src b out pending' src' Hb H.
  pose proof (grpc_read_spec pending src b Hb) as S. rewrite H in S. destruct S as [Hc Hl].
  split; [exact Hc|]. rewrite Hl.
  destruct pending; repeat split; try lia. intros [E|E]; [discriminate E | lia].
Qed.

Theorem buf_read_step : forall pending src b out pending' src', 0 <= b ->
  buf_read pending src b = (out, pending', src') ->
  out ++ pending' ++ concat src' = pending ++ concat src /\ len out <= b.
Proof.
  intros pending src b out pending' src' Hb H.
  pose proof (buf_read_spec pending src b Hb) as S. rewrite H in S. destruct S as [Hc Hl].
  split; [exact Hc | lia].
Qed.

Definition read_fn := list Z -> list (list Z) -> Z -> list Z * list Z * list (list Z).

Definition step_ok (rd : read_fn) : Prop :=
  forall pending src b out pending' src', 0 <= b ->
    rd pending src b = (out, pending', src') ->
    out ++ pending' ++ concat src' = pending ++ concat src /\ len out <= b.

Lemma grpc_step_ok : step_ok grpc_read.
Proof. intros p s b o p' s' Hb H. pose proof (grpc_read_step _ _ _ _ _ _ Hb H). tauto. Qed.

Lemma readers_step_ok : forall rd, rd = grpc_read \/ rd = buf_read -> step_ok rd.
Proof. intros rd [-> | ->]; [exact grpc_step_ok | exact buf_read_step]. Qed.

(* C15: a sequence of Read calls, for any reader whose single call conserves the bytes and respects
   the buffer *)
Lemma reads_seq_gen : forall rd, step_ok rd -> forall pending src sizes,
  Forall (fun b => 0 <= b) sizes ->
  is_prefix (concat (reads rd pending src sizes)) (pending ++ concat src)
  /\ Forall2 (fun out b => len out <= b) (reads rd pending src sizes) sizes.
Proof.
  intros rd Hrd pending src sizes. revert pending src.
  induction sizes as [|b sizes IH]; intros pending src Hs.
  - cbn [reads concat]. split; [apply is_prefix_nil | constructor].
  - inversion Hs as [|? ? Hb Hs']; subst.
    cbn [reads]. destruct (rd pending src b) as [[out p'] s'] eqn:E.
    destruct (Hrd _ _ _ _ _ _ Hb E) as [Hc Hl].
    destruct (IH p' s' Hs') as [[t Ht] HF].
    split.
    + exists t. cbn [concat]. rewrite <- Hc, Ht, app_assoc. reflexivity.
    + constructor; assumption.
Qed.

Theorem reads_seq : forall rd, rd = grpc_read \/ rd = buf_read ->
  forall pending src sizes, Forall (fun b => 0 <= b) sizes ->
  is_prefix (concat (reads rd pending src sizes)) (pending ++ concat src)
  /\ Forall2 (fun out b => len out <= b) (reads rd pending src sizes) sizes.
Proof.
  intros rd Hrd pending src sizes. apply reads_seq_gen, readers_step_ok, Hrd.
Qed.

Lemma drop_empty_nonempty : forall src, (exists m, In m src /\ m <> []) -> hd [] (drop_empty src) <> [].
Proof.
  induction src as [|c src IH]; intros (m & Hin & Hm).
  - destruct Hin.
  - destruct c as [|x c]; [|discriminate].
    cbn [drop_empty]. apply IH. destruct Hin as [<-|Hin]; [contradiction|]. eauto.
Qed.

Theorem buf_read_progress : forall pending src b out pending' src', 1 <= b ->
  (pending <> [] \/ exists m, In m src /\ m <> []) ->
  buf_read pending src b = (out, pending', src') -> out <> [].
Proof.
  intros pending src b out pending' src' Hb Hne H.
  pose proof (buf_read_spec pending src b ltac:(lia)) as S. rewrite H in S. destruct S as [_ Hl].
  apply len_pos. rewrite Hl. destruct pending as [|x pending0].
  - destruct Hne as [Hne|Hne]; [contradiction|]. apply drop_empty_nonempty, len_pos in Hne. lia.
  - assert (Hp : x :: pending0 <> []) by discriminate. apply len_pos in Hp. lia.
Qed.

Theorem grpc_read_progress_pending : forall pending src b out pending' src', 1 <= b ->
  pending <> [] -> grpc_read pending src b = (out, pending', src') -> out <> [].
Proof.
  intros pending src b out pending' src' Hb Hne H.
  pose proof (grpc_read_spec pending src b ltac:(lia)) as S. rewrite H in S. destruct S as [_ Hl].
  apply len_pos. rewrite Hl. apply len_pos in Hne. destruct pending; [contradiction | lia].
Qed.

Theorem grpc_read_progress_fresh : forall pending src b out pending' src' m rest, 1 <= b ->
  pending = [] -> src = m :: rest -> m <> [] ->
  grpc_read pending src b = (out, pending', src') -> out <> [].
Proof.
  intros pending src b out pending' src' m rest Hb -> -> Hm H.
  pose proof (grpc_read_spec [] (m :: rest) b ltac:(lia)) as S. rewrite H in S. destruct S as [_ Hl].
  apply len_pos. rewrite Hl. apply len_pos in Hm. cbn [hd]. unfold grpc_cap. lia.
Qed.

Lemma chunk_fuel_spec : forall fuel b, (length b < fuel)%nat ->
  concat (chunk_fuel fuel b) = b
  /\ Forall (fun c => len c <= max_record) (chunk_fuel fuel b)
  /\ (b <> [] -> Forall (fun c => c <> []) (chunk_fuel fuel b)).
Proof.
  induction fuel as [|f IH]; intros b Hf; [lia|].
  cbn [chunk_fuel]. destruct (Z.leb_spec (len b) max_record) as [Hle|Hgt].
  - cbn [concat]. rewrite app_nil_r. repeat split; repeat constructor; assumption.
  - (* a full record is cut off; what is left is shorter and still not empty *)
    assert (Hm : max_record = 65535) by reflexivity.
    destruct (IH (skipn (Z.to_nat max_record) b)) as (Hc & Hb & Hn).
    { rewrite skipn_length. unfold len in Hgt. lia. }
    cbn [concat]. rewrite Hc, firstn_skipn. split; [reflexivity|]. split.
    + constructor; [rewrite len_firstn; lia | exact Hb].
    + intros _. constructor; [|apply Hn]; apply len_pos; rewrite ?len_firstn, ?len_skipn; lia.
Qed.

Theorem tcp_write_records_spec : forall b,
  concat (tcp_write_records b) = b
  /\ Forall (fun c => len c <= max_record) (tcp_write_records b)
  /\ (b <> [] -> Forall (fun c => c <> []) (tcp_write_records b)).
Proof. intros b. apply chunk_fuel_spec. lia. Qed.

Theorem grpc_write_records_none : forall b, grpc_write_records b = None <-> max_record < len b.
Proof.
  intros b. unfold grpc_write_records. destruct (Z.ltb_spec max_record (len b)) as [H|H].
  - split; [intros _; exact H | reflexivity].
  - split; [discriminate | lia].
Qed.

Theorem grpc_write_records_some : forall b r, grpc_write_records b = Some r -> r = [b].
Proof.
  intros b r H. unfold grpc_write_records in H.
  destruct (max_record <? len b); [discriminate | congruence].
Qed.

Lemma read_full_fuel_spec : forall fuel chunks k acc,
  (length chunks < fuel)%nat -> 0 <= k <= len (concat chunks) ->
  exists out rest,
    read_full_fuel fuel k chunks acc = Some (acc ++ out, rest)
    /\ out ++ concat rest = concat chunks /\ len out = k.
Proof.
  induction fuel as [|f IH]; intros chunks k acc Hf Hk; [lia|].
  cbn [read_full_fuel]. destruct (Z.leb_spec k 0) as [Hk0|Hk0].
  - exists [], chunks. rewrite app_nil_r. repeat split. change (len (@nil Z)) with 0. lia.
  - destruct chunks as [|c chunks]; cbn [concat length] in *.
    + change (len (@nil Z)) with 0 in Hk. lia.
    + rewrite len_app in Hk. destruct (Z.leb_spec (len c) k) as [Hck|Hck].
      * destruct (IH chunks (k - len c) (acc ++ c)) as (out & rest & E & Hc & Hl); [lia | lia |].
        exists (c ++ out), rest. rewrite E, <- !app_assoc, Hc, len_app. repeat split. lia.
      * exists (firstn (Z.to_nat k) c), (skipn (Z.to_nat k) c :: chunks).
        cbn [concat]. rewrite app_assoc, firstn_skipn, len_firstn. repeat split. lia.
Qed.

(* C16: io.ReadFull over a fragmenting transport *)
Theorem read_full_frag : forall chunks k, 0 <= k <= len (concat chunks) ->
  exists rest, read_full k chunks = Some (firstn (Z.to_nat k) (concat chunks), rest)
               /\ concat rest = skipn (Z.to_nat k) (concat chunks).
Proof.
  intros chunks k Hk. unfold read_full.
  destruct (read_full_fuel_spec (S (length chunks)) chunks k [] ltac:(lia) Hk) as (out & rest & E & Hc & Hl).
  exists rest. rewrite <- Hc. destruct (cut_app _ k out (concat rest) Hl) as [-> ->].
  split; [exact E | reflexivity].
Qed.

Corollary read_full_frag_indep : forall chunks1 chunks2 k out1 rest1 out2 rest2,
  concat chunks1 = concat chunks2 -> 0 <= k <= len (concat chunks1) ->
  read_full k chunks1 = Some (out1, rest1) -> read_full k chunks2 = Some (out2, rest2) ->
  out1 = out2 /\ concat rest1 = concat rest2.
Proof.
  intros c1 c2 k o1 r1 o2 r2 E Hk H1 H2.
  destruct (read_full_frag c1 k Hk) as (r1' & E1 & Hc1).
  rewrite E in Hk. destruct (read_full_frag c2 k Hk) as (r2' & E2 & Hc2).
  rewrite H1 in E1. rewrite H2 in E2. injection E1 as -> ->. injection E2 as -> ->.
  rewrite Hc1, Hc2, E. split; reflexivity.
Qed.

Lemma read_full_fuel_short : forall fuel chunks k acc,
  len (concat chunks) < k -> read_full_fuel fuel k chunks acc = None.
Proof.
  induction fuel as [|f IH]; intros chunks k acc Hk; [reflexivity|].
  cbn [read_full_fuel]. pose proof (len_nonneg _ (concat chunks)) as H0.
  destruct (Z.leb_spec k 0) as [Hk0|Hk0]; [lia|].
  destruct chunks as [|c rest]; [reflexivity|].
  cbn [concat] in Hk. rewrite len_app in Hk. pose proof (len_nonneg _ (concat rest)).
  destruct (Z.leb_spec (len c) k) as [Hck|Hck]; [|lia].
  apply IH. lia.
Qed.

Theorem read_full_short : forall chunks k, len (concat chunks) < k -> read_full k chunks = None.
Proof. intros; unfold read_full; apply read_full_fuel_short; assumption. Qed.

(* Flush with partial writes.  What is still to be written, and how much of it is payload (the last `mac`
   bytes of the body are the tag): *)
Definition pend (st : pendingw) : list wbyte := pw_hdr st ++ pw_body st.
Definition payload_left (st : pendingw) : Z := Z.max (len (pw_body st)) mac - mac.

Lemma pending_nonempty_pend : forall st, pending_nonempty st = false <-> pend st = [].
Proof.
  intros [[|x h] [|y b]]; split; intro H; try reflexivity; discriminate H.
Qed.

Lemma flush_spec : forall st a1 a2,
  let '(out, nn, err, st') := flush st a1 a2 in
  out ++ pend st' = pend st
  /\ nn = payload_left st - payload_left st' /\ len (pw_body st') <= len (pw_body st)
  /\ err = pending_nonempty st'
  /\ (1 <= a1 -> 1 <= a2 -> 1 <= len (pend st) -> len (pend st') < len (pend st)).
Proof.
  intros [h b] a1 a2. unfold flush, pend, payload_left. cbn [pw_hdr pw_body].
  set (n1 := match h with [] => 0 | _ :: _ => offer a1 h end).
  assert (Hn1 : 1 <= a1 -> 1 <= len h -> 1 <= n1).
  { subst n1. destruct h; [cbn; lia|]. unfold offer. lia. }
  pose proof (firstn_skipn (Z.to_nat n1) h) as Eh.
  destruct (skipn (Z.to_nat n1) h) as [|y h'] eqn:Es.
  - (* the whole header has gone out: the body is offered *)
    rewrite app_nil_r in Eh. rewrite Eh. destruct b as [|z b0].
    + cbn [app pw_hdr pw_body]. rewrite !app_nil_r. change (len (@nil wbyte)) with 0. repeat split; lia.
    + set (bb := z :: b0). set (n2 := offer a2 bb). cbn [app pw_hdr pw_body].
      assert (Hbb : 1 <= len bb) by (apply len_pos; discriminate).
      assert (Hn2 : 0 <= n2 <= len bb /\ (1 <= a2 -> 1 <= n2)) by (subst n2; unfold offer; lia).
      assert (Hl : len (skipn (Z.to_nat n2) bb) = len bb - n2) by (rewrite len_skipn; lia).
      rewrite <- app_assoc, firstn_skipn, len_app, Hl. split; [reflexivity|]. split; [|split; [|split]].
      * destruct (Z.ltb_spec mac (len bb)); destruct (Z.leb_spec (len bb - n2) mac);
          destruct (Z.ltb_spec mac (len bb - n2)); cbn [andb]; lia.
      * lia.
      * rewrite <- Hl. destruct (skipn (Z.to_nat n2) bb); reflexivity.
      * pose proof (len_nonneg _ h). lia.
  - (* part of the header is left: the body is not touched *)
    cbn [pw_hdr pw_body]. rewrite app_assoc, Eh, !len_app.
    pose proof (len_skipn _ n1 h) as Lh. rewrite Es in Lh.
    assert (1 <= len (y :: h')) by (apply len_pos; discriminate). repeat split; lia.
Qed.

Lemma flush_all_spec : forall accs st,
  let '(out, nn, st') := flush_all st accs in
  out ++ pend st' = pend st
  /\ nn = payload_left st - payload_left st' /\ len (pw_body st') <= len (pw_body st).
Proof.
  induction accs as [|[a1 a2] accs IH]; intros st; cbn [flush_all].
  - repeat split; lia.
  - pose proof (flush_spec st a1 a2) as S. destruct (flush st a1 a2) as [[[o1 m1] e1] s1].
    specialize (IH s1). destruct (flush_all s1 accs) as [[o2 m2] s2].
    destruct S as (C1 & N1 & L1 & _). destruct IH as (C2 & N2 & L2).
    rewrite <- app_assoc, C2, C1. repeat split; lia.
Qed.

(* C16: every byte goes out exactly once, in order, whatever amounts the writer accepts (offer clamps them
   at 0) *)
Theorem flush_conservation : forall accs st out nn st',
  flush_all st accs = (out, nn, st') ->
  out ++ pw_hdr st' ++ pw_body st' = pw_hdr st ++ pw_body st.
Proof.
  intros accs st out nn st' H. pose proof (flush_all_spec accs st) as S. rewrite H in S. apply S.
Qed.

Theorem flush_nn_nonneg : forall st a1 a2 out nn err st',
  flush st a1 a2 = (out, nn, err, st') -> 0 <= nn.
Proof.
  intros st a1 a2 out nn err st' H. pose proof (flush_spec st a1 a2) as S. rewrite H in S.
  unfold payload_left in S. lia.
Qed.

(* at any point of the loop nn is the number of emitted body bytes that belong to the payload *)
Theorem flush_count_gen : forall accs hdr body out nn st',
  mac <= len body ->
  flush_all (mk_pendingw hdr body) accs = (out, nn, st') ->
  nn = Z.max 0 (Z.min (len body - len (pw_body st')) (len body - mac)).
Proof.
  intros accs hdr body out nn st' Hm H.
  pose proof (flush_all_spec accs (mk_pendingw hdr body)) as S. rewrite H in S.
  unfold payload_left in S. cbn [pw_body] in S. lia.
Qed.

(* C16: when the loop is done the counts add up to the plaintext length *)
Theorem flush_count : forall accs hdr body out nn st',
  mac <= len body ->
  flush_all (mk_pendingw hdr body) accs = (out, nn, st') ->
  pending_nonempty st' = false -> nn = len body - mac.
Proof.
  intros accs hdr body out nn st' Hm H Hp.
  rewrite (flush_count_gen _ _ _ _ _ _ Hm H).
  apply pending_nonempty_pend, app_eq_nil in Hp. destruct Hp as [_ ->].
  change (len (@nil wbyte)) with 0. unfold mac in *. lia.
Qed.

(* C16: with a writer that accepts at least one byte per write, every Flush call strictly reduces what
   is pending *)
Theorem flush_progress : forall st a1 a2 out nn err st',
  1 <= a1 -> 1 <= a2 -> pending_nonempty st = true ->
  flush st a1 a2 = (out, nn, err, st') ->
  len (pw_hdr st') + len (pw_body st') < len (pw_hdr st) + len (pw_body st).
Proof.
  intros st a1 a2 out nn err st' Ha1 Ha2 Hp H.
  pose proof (flush_spec st a1 a2) as S. rewrite H in S. destruct S as (_ & _ & _ & _ & Hlt).
  assert (Hne : 1 <= len (pend st)) by (apply len_pos; intro E; apply pending_nonempty_pend in E; congruence).
  specialize (Hlt Ha1 Ha2 Hne). unfold pend in Hlt. rewrite !len_app in Hlt. exact Hlt.
Qed.

(* so against such a writer a Flush loop is done within len hdr + len body calls *)
Lemma flush_all_pending_bound : forall accs st,
  Forall (fun a => 1 <= fst a /\ 1 <= snd a) accs ->
  let '(_, _, st') := flush_all st accs in len (pend st') <= Z.max 0 (len (pend st) - len accs).
Proof.
  induction accs as [|[a1 a2] accs IH]; intros st Hacc; cbn [flush_all].
  - change (len (@nil (Z * Z))) with 0. lia.
  - inversion Hacc as [|? ? [Ha1 Ha2] Hacc']; subst. cbn [fst snd] in *.
    pose proof (flush_spec st a1 a2) as S. destruct (flush st a1 a2) as [[[o1 m1] e1] s1].
    specialize (IH s1 Hacc'). destruct (flush_all s1 accs) as [[o2 m2] s2].
    destruct S as (C & _ & _ & _ & Hlt). specialize (Hlt Ha1 Ha2).
    apply (f_equal (fun l => len l)) in C. rewrite len_app in C.
    assert (Hl : len ((a1, a2) :: accs) = len accs + 1) by (unfold len; cbn [length]; lia).
    pose proof (len_nonneg _ o1). pose proof (len_nonneg _ (pend s1)). pose proof (len_nonneg _ accs). lia.
Qed.

Corollary flush_all_terminates : forall accs st out nn st',
  Forall (fun a => 1 <= fst a /\ 1 <= snd a) accs ->
  len (pw_hdr st) + len (pw_body st) <= len accs ->
  flush_all st accs = (out, nn, st') -> pending_nonempty st' = false.
Proof.
  intros accs st out nn st' Hacc Hlen H.
  pose proof (flush_all_pending_bound accs st Hacc) as B. rewrite H in B.
  unfold pend in B at 2. rewrite len_app in B.
  apply pending_nonempty_pend, len_nil_iff. pose proof (len_nonneg _ (pend st')). lia.
Qed.

Print Assumptions grpc_read_step.
Print Assumptions grpc_read_cap_false.
Print Assumptions buf_read_step.
Print Assumptions reads_seq.
Print Assumptions buf_read_progress.
Print Assumptions grpc_read_progress_pending.
Print Assumptions grpc_read_progress_fresh.
Print Assumptions tcp_write_records_spec.
Print Assumptions grpc_write_records_none.
Print Assumptions grpc_write_records_some.
Print Assumptions read_full_frag.
Print Assumptions read_full_short.
Print Assumptions flush_conservation.
Print Assumptions flush_count_gen.
Print Assumptions flush_count.
Print Assumptions flush_nn_nonneg.
Print Assumptions flush_progress.
Print Assumptions flush_all_terminates.

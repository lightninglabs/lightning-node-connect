(* Round trips of the generated wire codecs (C19): Deserialize after Message_Serialize for every GBN message,
   MsgData_decode after MsgData_Serialize for every payload shorter than 2^32. *)
From LNC Require Import GoLite MessagesGen MsgDataGen Codec.
Open Scope Z_scope.

Lemma deserialize_data sq f p pl :
  Deserialize (2 :: sq :: f :: p :: pl) = Ok (Some (Message_PacketData (mk_PacketData sq (f =? 1) (p =? 1) pl))).
Proof.
  pose proof (len_nonneg pl). unfold Deserialize.
  (* the two length tests pass and b[4:] is in range; the cells b[0..3] are read by evaluation *)
  rewrite slice_from_ok, !(proj2 (Z.ltb_ge (len _) _)) by (rewrite !len_cons; lia). reflexivity.
Qed.

Lemma data_roundtrip v :
  exists b, PacketData_Serialize v = Ok (Some b) /\ Deserialize b = Ok (Some (Message_PacketData v)).
Proof.
  destruct v as [sq f p pl].
  exists (2 :: sq :: (if f then 1 else 0) :: (if p then 1 else 0) :: pl).
  rewrite deserialize_data. destruct f, p; split; reflexivity.
Qed.

Lemma gbn_roundtrip (m : Message) :
  exists b, Message_Serialize m = Ok (Some b) /\ Deserialize b = Ok (Some m).
Proof.
  destruct m as [v|[x]|[x]|[x]|[]|[]]; [apply data_roundtrip | eexists; split; reflexivity ..].
Qed.

Lemma gbn_serialize_total (m : Message) : exists b, Message_Serialize m = Ok (Some b).
Proof. destruct (gbn_roundtrip m) as [b [H _]]; eauto. Qed.

(* two serialisations that are equal come from equal messages: both ends
   interpret a packet identically *)
Lemma gbn_serialize_injective (m1 m2 : Message) b :
  Message_Serialize m1 = Ok (Some b) -> Message_Serialize m2 = Ok (Some b) -> m1 = m2.
Proof.
  intros H1 H2.
  destruct (gbn_roundtrip m1) as [b1 [S1 D1]], (gbn_roundtrip m2) as [b2 [S2 D2]].
  congruence.
Qed.

Lemma msgdata_serialize_frame ver pl : len pl < 4294967296 ->
  MsgData_Serialize (mk_MsgData ver pl) = Ok (Some (ver :: be32_put (len pl) ++ pl)).
Proof.
  intros Hlen. pose proof (len_nonneg pl).
  unfold MsgData_Serialize, u32. cbn [MsgData_Payload MsgData_version]. rewrite Z.mod_small by lia.
  change (be32_put_into (zeros 4) (len pl)) with (Ok (be32_put (len pl))). cbn [bind].
  destruct (Z.ltb_spec 0 (len pl)); [reflexivity|].
  rewrite (len_le0_nil pl) by lia. reflexivity.
Qed.

(* the decoder reads one frame and ignores what follows it *)
Lemma msgdata_decode_frame ver pl rest : len pl < 4294967296 ->
  MsgData_decode (ver :: be32_put (len pl) ++ pl ++ rest) = Ok (Some (mk_MsgData ver pl)).
Proof.
  intros Hlen. pose proof (len_nonneg pl). pose proof (len_nonneg rest).
  assert (Hb : len (ver :: be32_put (len pl) ++ pl ++ rest) = 5 + len pl + len rest)
    by (rewrite len_cons, !len_app; change (len (be32_put (len pl))) with 4; ring).
  unfold MsgData_decode, MsgData_Deserialize, NewMsgData. rewrite Hb.
  rewrite (proj2 (Z.ltb_ge _ 5)) by lia. rewrite idx_cons0. cbn [bind].
  change (ver :: ?l) with ([ver] ++ l).
  rewrite (slice_app_exact [ver] (be32_put (len pl))) by reflexivity. cbn [bind].
  rewrite be32_roundtrip by lia. cbn [bind].
  rewrite (proj2 (Z.ltb_ge _ (5 + len pl))) by lia.
  destruct (Z.ltb_spec 0 (len pl)).
  - rewrite app_assoc, (slice_app_exact _ pl) by reflexivity. reflexivity.
  - rewrite (len_le0_nil pl) by lia. reflexivity.
Qed.

Lemma msgdata_roundtrip (m : MsgData) :
  len (MsgData_Payload m) < 4294967296 ->
  exists b, MsgData_Serialize m = Ok (Some b) /\ MsgData_decode b = Ok (Some m).
Proof.
  destruct m as [ver pl]. cbn [MsgData_Payload]. intros Hlen.
  eexists. split; [apply msgdata_serialize_frame, Hlen|].
  rewrite <- (app_nil_r pl) at 2. apply msgdata_decode_frame, Hlen.
Qed.

(* C18: ranked locking (Model/LockOrder.v) never deadlocks in the interleaving model of Model/Lockset.v.
   By `tracks` (LocksetProofs.v) the remaining code of every thread is ordered with the mutexes it owns; where
   nobody can move, going from a waiter to the owner of the mutex it waits for would climb in rank for ever. *)
From Coq Require Import List Arith Lia.
From LNC Require Import Lockset LockOrder LocksetProofs.
Import ListNotations.

Lemma ordered_after : forall rank a held rest,
  ordered rank held (a :: rest) -> ordered rank (after a held) rest.
Proof. intros rank [m|m|f w]; simpl; tauto. Qed.

Definition awaited (rank : nat -> nat) (t : thread) : nat :=
  match t with
  | ALock m :: _ => rank m
  | _ => 0
  end.

Lemma awaited_le_max : forall rank (l : list thread) i,
  awaited rank (nth i l []) <= list_max (map (awaited rank) l).
Proof.
  intros rank l i. destruct (nth_in_or_default i l []) as [Hin| ->]; [|apply Nat.le_0_l].
  pose proof (proj1 (list_max_le (map (awaited rank) l) _) (Nat.le_refl _)) as HF.
  rewrite Forall_forall in HF. apply HF, in_map, Hin.
Qed.

(* a blocked thread waits for a mutex that some thread owns: an ordered thread unlocks only what it holds *)
Lemma blocked_waits : forall rank st i a rest,
  tracks (ordered rank) st -> nth i (threads st) [] = a :: rest -> step st i = None ->
  exists m j, a = ALock m /\ owner st m = Some j.
Proof.
  intros rank st i a rest Hinv Hn Hs. pose proof (step_blocked _ _ _ _ Hn Hs) as Hne.
  destruct a as [m|m|f w]; simpl in Hne.
  - destruct (owner st m) as [j|] eqn:Ho; [eauto | congruence].
  - destruct (Hinv i) as (held & Hd & Ho). rewrite Hn in Hd. destruct Hd as [Hin _].
    apply Ho in Hin. contradiction.
  - tauto.
Qed.

(* where nobody can move, nobody waits for a mutex: its owner has code left (an ordered thread ends
   holding nothing, and a thread that is not there counts as ended), so the owner waits itself, for a
   mutex of strictly larger rank, and awaited ranks are bounded *)
Lemma no_waiter : forall rank st,
  tracks (ordered rank) st -> (forall i, step st i = None) ->
  forall n i m rest,
    list_max (map (awaited rank) (threads st)) - rank m < n ->
    nth i (threads st) [] = ALock m :: rest -> False.
Proof.
  intros rank st Hinv Hblocked.
  induction n as [|n IH]; intros i m rest Hmeas Hn; [lia|].
  destruct (blocked_waits _ _ _ _ _ Hinv Hn (Hblocked i)) as (? & j & [= <-] & Hoj).
  destruct (Hinv j) as (heldj & Hdj & Hokj). apply Hokj in Hoj.
  pose proof (awaited_le_max rank (threads st) j) as Hle.
  destruct (nth j (threads st) []) as [|a restj] eqn:Hj; [simpl in Hdj; subst heldj; inversion Hoj|].
  destruct (blocked_waits _ _ _ _ _ Hinv Hj (Hblocked j)) as (m' & _ & -> & _).
  destruct Hdj as [Hrk _]. specialize (Hrk m Hoj). simpl in Hle.
  apply (IH j m' restj); [lia | exact Hj].
Qed.

Lemma tracks_not_stuck : forall rank st, tracks (ordered rank) st -> ~ stuck st.
Proof.
  intros rank st Hinv [Hnf Hblocked].
  apply Hnf. intros i [|a rest] Hn; [reflexivity|]. exfalso. apply (nth_error_nth _ _ []) in Hn.
  destruct (blocked_waits _ _ _ _ _ Hinv Hn (Hblocked i)) as (m & _ & -> & _).
  eapply (no_waiter rank st Hinv Hblocked (S _)); [apply Nat.lt_succ_diag_r | eassumption].
Qed.

Theorem ordered_no_deadlock : forall (rank : nat -> nat) (prog : list thread),
  Forall (ordered rank []) prog ->
  forall st, reachable (init_state prog) st -> ~ stuck st.
Proof.
  intros rank prog HF st Hr. apply (tracks_not_stuck rank). revert st Hr.
  apply tracks_reachable; [apply ordered_after | reflexivity | assumption].
Qed.

Definition same_order_prog : list thread :=
  [ [ALock 0; ALock 1; AUnlock 1; AUnlock 0];
    [ALock 0; ALock 1; AUnlock 0; AUnlock 1] ].

Example same_order_ordered : Forall (ordered (fun m => m) []) same_order_prog.
Proof.
  unfold same_order_prog.
  apply Forall_cons; [| apply Forall_cons; [| apply Forall_nil]];
    simpl; intuition lia.
Qed.

Example same_order_no_deadlock :
  forall st, reachable (init_state same_order_prog) st -> ~ stuck st.
Proof. exact (ordered_no_deadlock (fun m => m) same_order_prog same_order_ordered). Qed.

(* the example program really runs and blocks a thread on the way: after thread 0
   takes mutex 0, thread 1 is blocked but thread 0 can go on *)
Example same_order_runs :
  exists st, step (init_state same_order_prog) 0 = Some st /\
             step st 1 = None /\ step st 0 <> None.
Proof. eexists. split; [reflexivity|]. split; [reflexivity | discriminate]. Qed.

Definition opposite_prog : list thread :=
  [ [ALock 0; ALock 1; AUnlock 1; AUnlock 0];
    [ALock 1; ALock 0; AUnlock 0; AUnlock 1] ].

Example opposite_orders_deadlock :
  exists st, reachable (init_state opposite_prog) st /\ stuck st.
Proof.
  eexists. split.
  - eapply r_step with (i := 1).
    + eapply r_step with (i := 0); [apply r_init | reflexivity].
    + reflexivity.
  - split.
    + intros Hfin. specialize (Hfin 0 _ eq_refl). discriminate.
    + intros [|[|i]]; try reflexivity.
      unfold step. simpl. destruct i; reflexivity.
Qed.

(* hence no rank makes the opposite-order program ordered *)
Example opposite_not_ordered : forall rank,
  ~ Forall (ordered rank []) opposite_prog.
Proof.
  intros rank HF.
  destruct opposite_orders_deadlock as [st [Hr Hs]].
  exact (ordered_no_deadlock rank opposite_prog HF st Hr Hs).
Qed.

Print Assumptions ordered_no_deadlock.
Print Assumptions opposite_orders_deadlock.

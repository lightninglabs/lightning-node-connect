(* The invariant of the one-direction Go-Back-N system (Model/Gbn.v); GbnSafety.v shows that every step keeps it.
   It ties what the code keeps (the residues mod s = n + 1 in the queue and in recvSeq, the slots of the ring) to
   the ghost counters B <= R <= T <= B + n and the history `sent`, and says of every item in flight which index of
   `sent` it stands for. Both channels are ordered, DATA by the top under which an item was transmitted, replies by
   the index they acknowledge: that is what drop, in-order duplication and delay leave intact. *)
From LNC Require Import GoLite MessagesGen QueueGen Gbn Window.
Open Scope Z_scope.

Definition nth_sent (st : dsys) (d : Z) : option PacketData :=
  if d <? 0 then None else nth_error (d_sent st) (Z.to_nat d).

(* f_d is the index of the packet the item carries, f_t the sender's top when it was transmitted (the DATA channel
   is ordered by it); b_e is the cumulative index a control item stands for (ACK a: a + 1, NACK v: v) *)
Definition fitem_ok (st : dsys) (it : fitem) : Prop :=
  0 <= f_d it /\ f_t it - d_n st <= f_d it /\ f_d it < f_t it /\ f_t it <= d_T st /\
  d_R st <= f_t it /\ nth_sent st (f_d it) = Some (f_pkt it).

Definition ctrl_ok (s : Z) (c : ctrl) (e : Z) : Prop :=
  match c with
  | CAck a => 1 <= e /\ a = (e - 1) mod s
  | CNack v => v = e mod s
  end.

Definition bitem_ok (st : dsys) (it : bitem) : Prop :=
  d_B st <= b_e it <= d_R st /\ ctrl_ok (d_n st + 1) (b_ctrl it) (b_e it).

Fixpoint sorted (l : list Z) : Prop :=
  match l with
  | [] => True
  | x :: rest => (forall y, In y rest -> x <= y) /\ sorted rest
  end.

(* i_content: the last n + 1 packets queued (indices T - (n + 1) .. T - 1) sit in the ring, index d in slot d mod s.
   i_content_inv: conversely, a slot that holds a packet was written (while T < n + 1 some slots are not, and their
     slot_index is negative); DRetx may name any slot, and the item it sends must carry an index of `sent`.
   i_pend: the reply the receiver has ready stands for its current R (ACK (R - 1) or NACK R). *)
Record Inv (st : dsys) : Prop := {
  i_sender : sender_ok (d_q st) (d_n st) (d_B st) (d_T st);
  i_R : d_B st <= d_R st <= d_T st;
  i_recv : d_recv st = d_R st mod (d_n st + 1);
  i_rs : d_rs st = d_n st + 1;
  i_clen : len (queue_content (d_q st)) = d_n st + 1;
  i_sentlen : len (d_sent st) = d_T st;
  i_prefix : d_delivered st = firstn (Z.to_nat (d_R st)) (d_sent st);
  i_seq : forall d p, nth_sent st d = Some p -> PacketData_Seq p = d mod (d_n st + 1);
  i_content : forall d, 0 <= d < d_T st -> d_T st - d <= d_n st + 1 ->
              idx (queue_content (d_q st)) (d mod (d_n st + 1)) = Ok (nth_sent st d);
  i_content_inv : forall k p, 0 <= k < d_n st + 1 -> idx (queue_content (d_q st)) k = Ok (Some p) ->
              0 <= slot_index (d_T st) (d_n st + 1) k;
  i_fwd : Forall (fitem_ok st) (d_fwd st);
  i_fwd_sorted : sorted (map f_t (d_fwd st));
  i_bwd : Forall (bitem_ok st) (d_bwd st);
  i_bwd_sorted : sorted (map b_e (d_bwd st));
  i_pend : match d_pend st with Some c => ctrl_ok (d_n st + 1) c (d_R st) | None => True end
}.

Lemma sorted_app_tail l y : sorted l -> (forall x, In x l -> x <= y) -> sorted (l ++ [y]).
Proof.
  induction l as [|a l IH]; intros Hs Hle; cbn [app sorted].
  - split; [intros ? []|exact I].
  - destruct Hs as [Ha Hs]. split.
    + intros z Hz. apply in_app_or in Hz. destruct Hz as [Hz|[Hz|[]]].
      * apply Ha; exact Hz.
      * subst z. apply Hle. left; reflexivity.
    + apply IH; [exact Hs|]. intros x Hx. apply Hle. right; exact Hx.
Qed.

Lemma nth_sent_range st d p : nth_sent st d = Some p -> 0 <= d < len (d_sent st).
Proof.
  unfold nth_sent. destruct (d <? 0) eqn:E; [discriminate|]. intros H.
  assert (nth_error (d_sent st) (Z.to_nat d) <> None) as Hn by congruence.
  apply nth_error_Some in Hn. unfold len. lia.
Qed.

Lemma nth_sent_snoc st st' x d : d_sent st' = d_sent st ++ [x] ->
  nth_sent st' d = if d =? len (d_sent st) then Some x else nth_sent st d.
Proof.
  intros E. unfold nth_sent, len. rewrite E. destruct (Z.ltb_spec d 0), (Z.eqb_spec d (Z.of_nat (length (d_sent st)))); try lia.
  - reflexivity.
  - subst d. rewrite Nat2Z.id, nth_error_app2, Nat.sub_diag by lia. reflexivity.
  - destruct (Nat.lt_ge_cases (Z.to_nat d) (length (d_sent st))) as [Hlt|Hge].
    + apply nth_error_app1. exact Hlt.
    + rewrite (proj2 (nth_error_None (d_sent st) _) Hge). apply nth_error_None.
      rewrite app_length. cbn [length]. lia.
Qed.

(* The ghost counters and the history only grow. A DATA item stays good while R has not passed the top it was sent
   under, a control item while B has not passed the index it carries; when a head is consumed the order of the
   channel says so for what is behind it. *)
Lemma fitem_ok_mono st st' it :
  fitem_ok st it -> d_n st' = d_n st -> d_T st <= d_T st' -> d_R st' <= f_t it ->
  (forall d p, nth_sent st d = Some p -> nth_sent st' d = Some p) -> fitem_ok st' it.
Proof.
  intros (H1 & H2 & H3 & H4 & H5 & H6) Hn HT HR Hs. unfold fitem_ok. rewrite Hn.
  repeat split; try lia. apply Hs; exact H6.
Qed.

Lemma bitem_ok_mono st st' it :
  bitem_ok st it -> d_n st' = d_n st -> d_B st' <= b_e it -> b_e it <= d_R st' -> bitem_ok st' it.
Proof.
  intros (H1 & H2) Hn HB HR. unfold bitem_ok. rewrite Hn. split; [lia|exact H2].
Qed.

Lemma fwd_t_le st l x : Forall (fitem_ok st) l -> In x (map f_t l) -> x <= d_T st.
Proof.
  intros HF Hx. apply in_map_iff in Hx. destruct Hx as (it & <- & Hin).
  rewrite Forall_forall in HF. destruct (HF it Hin) as (_ & _ & _ & H & _). exact H.
Qed.

Lemma bwd_e_le st l x : Forall (bitem_ok st) l -> In x (map b_e l) -> x <= d_R st.
Proof.
  intros HF Hx. apply in_map_iff in Hx. destruct Hx as (it & <- & Hin).
  rewrite Forall_forall in HF. destruct (HF it Hin) as ((_ & H) & _). exact H.
Qed.

Example example_run_ok :
  match drun (dinit 2) example_run with
  | DOk st => d_T st = 5 /\ d_B st = 5 /\ d_R st = 5 /\ map PacketData_Payload (d_delivered st) = [[10]; [11]; [12]; [13]; [14]]
  | _ => False
  end.
Proof. vm_compute. repeat split; reflexivity. Qed.

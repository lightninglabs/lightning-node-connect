(* The reliable round of Model/GbnProgress.v (drain / resend / drain) from any state that satisfies Inv: the measure
   that bounds a drain by drain_fuel, what the resend round puts into the DATA channel (chain), and the invariant
   of the second drain (P2) from which R = T and B = T follow. *)
From LNC Require Import GoLite MessagesGen Gbn GbnProgress Window GbnInv GbnSafety.
Open Scope Z_scope.

Lemma flush_step_spec st :
  match flush_step st with
  | Some DReply => exists c, d_pend st = Some c
  | Some (DFwd Deliver) => d_pend st = None /\ exists it rest, d_fwd st = it :: rest
  | Some (DBwd Deliver) => d_pend st = None /\ d_fwd st = [] /\ exists it rest, d_bwd st = it :: rest
  | Some _ => False
  | None => d_pend st = None /\ d_fwd st = [] /\ d_bwd st = []
  end.
Proof. unfold flush_step. destruct (d_pend st); [|destruct (d_fwd st); [destruct (d_bwd st)|]]; eauto 6. Qed.

(* a DATA item costs its delivery, the reply and the delivery of the reply; drain_fuel is this measure with a
   reply always counted as pending *)
Definition meas (st : dsys) : nat :=
  (3 * length (d_fwd st) + length (d_bwd st) +
   match d_pend st with Some _ => 2 | None => 0 end)%nat.

Lemma meas_fuel st : (meas st <= drain_fuel st)%nat.
Proof. unfold meas, drain_fuel. destruct (d_pend st); lia. Qed.

Lemma flush_exec st ev : Inv st -> flush_step st = Some ev ->
  exists st', dstep st ev = DOk st' /\ (meas st' < meas st)%nat /\ d_sent st' = d_sent st.
Proof.
  intros Hinv Hf. pose proof (flush_step_spec st) as Hc. rewrite Hf in Hc. unfold meas.
  destruct ev as [| |[]| |[]]; try contradiction.
  - destruct Hc as (Ep & it & rest & Efw). rewrite (dstep_fwd st it rest) by (assumption || discriminate).
    eexists. split; [reflexivity|]. rewrite Ep, Efw. destruct (_ =? _); simpl_st; cbn [after_op length]; (split; [lia|reflexivity]).
  - destruct Hc as (c & Ep). unfold dstep. rewrite Ep.
    eexists. split; [reflexivity|]. simpl_st. rewrite app_length. cbn [length]. split; [lia|reflexivity].
  - destruct Hc as (Ep & Efw & it & rest & Eb). rewrite (dstep_bwd st it rest) by (assumption || discriminate).
    eexists. split; [reflexivity|]. simpl_st. rewrite Ep, Efw, Eb. cbn [after_op length]. split; [lia|reflexivity].
Qed.

(* a drain runs until nothing is in flight, and carries along whatever its events keep *)
Lemma drain_gen (P : dsys -> Prop) :
  (forall st ev st', Inv st -> P st -> flush_step st = Some ev -> dstep st ev = DOk st' -> P st') ->
  forall fuel st, Inv st -> P st -> (meas st <= fuel)%nat ->
  exists st1, drain fuel st = DOk st1 /\ Inv st1 /\ P st1 /\ flush_step st1 = None /\ d_sent st1 = d_sent st.
Proof.
  intros Hstep. induction fuel as [|fuel IH]; intros st Hinv HP Hm; cbn [drain];
    (destruct (flush_step st) as [ev|] eqn:Ef; [|exists st; auto]);
    destruct (flush_exec st ev Hinv Ef) as (st' & Hst & Hlt & Hs).
  - lia.
  - rewrite Hst, <- Hs. apply IH; [exact (dstep_inv _ _ _ Hinv Hst)|exact (Hstep _ _ _ Hinv HP Ef Hst)|lia].
Qed.

Corollary drain_inv fuel st : Inv st -> (meas st <= fuel)%nat ->
  exists st1, drain fuel st = DOk st1 /\ Inv st1 /\ flush_step st1 = None /\ d_sent st1 = d_sent st.
Proof.
  intros Hinv Hm.
  destruct (drain_gen (fun _ => True) (fun _ _ _ _ _ _ _ => I) fuel st Hinv I Hm) as (st1 & Hd & Hinv1 & _ & Hq).
  exists st1. auto.
Qed.

(* the items of l carry the consecutive ghost indices a, a+1, .., b-1 *)
Fixpoint chain (a b : Z) (l : list fitem) : Prop :=
  match l with
  | [] => a = b
  | it :: rest => f_d it = a /\ chain (a + 1) b rest
  end.

Lemma retx_step st d : Inv st -> d_B st <= d < d_T st ->
  exists p, dstep st (DRetx (d mod (d_n st + 1))) =
    DOk (mk_dsys (d_n st) (d_q st) (d_recv st) (d_rs st) (d_pend st)
           (d_fwd st ++ [mk_fitem p d (d_T st)]) (d_bwd st)
           (d_B st) (d_T st) (d_R st) (d_sent st) (d_delivered st)).
Proof.
  intros Hinv Hd.
  pose proof (i_sender st Hinv) as [Hn HBT Hw Hcs Hb Ht].
  pose proof (Z.mod_pos_bound d (d_n st + 1) ltac:(lia)) as Hk.
  assert (Hne : d mod (d_n st + 1) <> d_T st mod (d_n st + 1)) by (apply mod_neq_window; lia).
  pose proof (slot_index_unique (d_T st) (d_n st + 1) _ d Hk eq_refl ltac:(lia)) as Hsl.
  destruct (nth_sent st d) as [p|] eqn:Hp.
  2:{ unfold nth_sent in Hp. destruct (Z.ltb_spec d 0); [lia|]. apply nth_error_None in Hp.
      pose proof (i_sentlen st Hinv). unfold len in *. lia. }
  exists p. unfold dstep. cbv zeta. rewrite Ht, Hcs, content_at, Hsl, Hp by (assumption || lia).
  destruct (Z.eqb_spec (d mod (d_n st + 1)) (d_T st mod (d_n st + 1))), (Z.ltb_spec (d mod (d_n st + 1)) 0),
    (Z.leb_spec (d_n st + 1) (d mod (d_n st + 1))); try lia. reflexivity.
Qed.

(* the resend round, started at any index d of the window, appends d .. T-1 to the DATA channel *)
Lemma resend_run fuel : forall d st,
  Inv st -> d_B st <= d <= d_T st -> (Z.to_nat (d_T st - d) <= fuel)%nat ->
  exists l, chain d (d_T st) l /\
    drun st (retx_list fuel (d mod (d_n st + 1)) (d_T st mod (d_n st + 1)) (d_n st + 1)) =
      DOk (mk_dsys (d_n st) (d_q st) (d_recv st) (d_rs st) (d_pend st) (d_fwd st ++ l) (d_bwd st)
             (d_B st) (d_T st) (d_R st) (d_sent st) (d_delivered st)).
Proof.
  induction fuel as [|fuel IH]; intros d st Hinv Hd Hfuel; cbn [retx_list].
  { exists []. split; [cbn [chain]; lia|]. rewrite app_nil_r. destruct st; reflexivity. }
  pose proof (i_sender st Hinv) as [Hn HBT Hw _ _ _].
  destruct (Z.eqb_spec (d mod (d_n st + 1)) (d_T st mod (d_n st + 1))) as [E|E].
  - exists []. split; [apply (mod_unique _ _ (d_n st + 1)); lia|]. rewrite app_nil_r. destruct st; reflexivity.
  - assert (Hlt : d < d_T st) by (destruct (Z.eq_dec d (d_T st)); [congruence|lia]).
    destruct (retx_step st d Hinv ltac:(lia)) as (p & Hstep). cbn [drun]. rewrite Hstep, Zplus_mod_idemp_l.
    destruct (IH (d + 1) _ (dstep_inv _ _ _ Hinv Hstep)) as (l & Hch & Hrun); simpl_st; [lia..|].
    exists (mk_fitem p d (d_T st) :: l). rewrite Hrun, <- app_assoc. split; [split; [reflexivity|exact Hch]|reflexivity].
Qed.

Fixpoint last_e (l : list bitem) (dflt : Z) : Z :=
  match l with
  | [] => dflt
  | it :: rest => last_e rest (b_e it)
  end.

Lemma last_e_snoc l : forall dflt x, last_e (l ++ [x]) dflt = b_e x.
Proof. induction l as [|a l IH]; intros dflt x; cbn [app last_e]; [reflexivity|apply IH]. Qed.

(* The second drain. The DATA channel holds d0 .. T-1 with d0 <= R, so the receiver accepts each item it has not
   accepted before and ends at R = T; and once the last reply is out, the last control item that will be processed
   carries the index T, so the sender ends at B = T. *)
Definition P2 (st : dsys) : Prop :=
  (exists d0, d0 <= d_R st /\ chain d0 (d_T st) (d_fwd st)) /\
  (d_fwd st = [] -> d_pend st = None -> last_e (d_bwd st) (d_B st) = d_T st).

Lemma P2_step st ev st' :
  Inv st -> P2 st -> flush_step st = Some ev -> dstep st ev = DOk st' -> P2 st'.
Proof.
  intros Hinv ((d0 & Hd0 & Hch) & Hlast) Hf Hstep. pose proof (i_R st Hinv) as HR.
  pose proof (flush_step_spec st) as Hc. rewrite Hf in Hc. destruct ev as [| |[]| |[]]; try contradiction.
  - destruct Hc as (Ep & it & rest & Efw). rewrite Efw in Hch.
    rewrite (dstep_fwd st it rest) in Hstep by (assumption || discriminate). injection Hstep as <-.
    destruct Hch as [Hd Hch]. split.
    + (* the head, d0, is accepted iff d0 = R; otherwise d0 < R already *)
      exists (d0 + 1). destruct (Z.eqb_spec (f_d it) (d_R st)); simpl_st; (split; [lia|exact Hch]).
    + destruct (f_d it =? d_R st); simpl_st; discriminate.
  - destruct Hc as (c & Ep). unfold dstep in Hstep. rewrite Ep in Hstep. injection Hstep as <-.
    split; simpl_st; [exists d0; split; assumption|].
    (* the reply carries R, and R = T once the DATA channel is empty *)
    intros Hf0 _. rewrite Hf0 in Hch. cbn [chain] in Hch. rewrite last_e_snoc. cbn [b_e]. lia.
  - destruct Hc as (Ep & Efw & it & rest & Eb). rewrite Eb in Hlast.
    rewrite (dstep_bwd st it rest) in Hstep by (assumption || discriminate). injection Hstep as <-.
    split; simpl_st; [exists d0; split; assumption|].
    intros _ _. exact (Hlast Efw Ep).
Qed.

Theorem reliable_round_delivers : forall st, 1 <= d_n st <= 254 -> Inv st ->
  exists st', reliable_round st = DOk st' /\ Inv st' /\
    d_T st' = d_T st /\ d_R st' = d_T st /\ d_B st' = d_T st /\
    d_fwd st' = [] /\ d_bwd st' = [] /\ d_pend st' = None /\
    d_sent st' = d_sent st /\ d_delivered st' = d_sent st.
Proof.
  (* st -drain-> st1, nothing in flight -resend-> st2, B .. T-1 in the DATA channel -drain-> st3 *)
  intros st _ Hinv. unfold reliable_round, drain_all.
  destruct (drain_inv (drain_fuel st) st Hinv (meas_fuel st)) as (st1 & -> & Hinv1 & Hq1 & Hs1). cbn [dbind].
  pose proof (flush_step_spec st1) as Hc1. rewrite Hq1 in Hc1. destruct Hc1 as (Hp1 & Hf1 & Hb1).
  pose proof (i_sender st1 Hinv1) as [Hn1 HBT1 Hw1 Hcs1 Hbase1 Htop1]. pose proof (i_R st1 Hinv1) as HR1.
  unfold resend_events. rewrite Hcs1, Hbase1, Htop1.
  destruct (resend_run (Z.to_nat (d_n st1 + 1)) (d_B st1) st1 Hinv1 ltac:(lia) ltac:(lia)) as (l & Hch & Hr2).
  rewrite Hr2. cbn [dbind]. apply (drun_inv _ _ _ Hinv1) in Hr2. rewrite Hf1, Hb1, Hp1 in *. cbn [app] in *.
  set (st2 := mk_dsys _ _ _ _ _ _ _ _ _ _ _ _) in *.
  assert (HP2 : P2 st2).
  { split; [exists (d_B st1); split; [exact (proj1 HR1)|exact Hch]|].
    intros Hf0 _. subst st2; simpl_st. rewrite Hf0 in Hch. exact Hch. }
  destruct (drain_gen P2 P2_step (drain_fuel st2) st2 Hr2 HP2 (meas_fuel st2))
    as (st3 & -> & Hinv3 & ((d0 & Hd0 & Hch3) & Hlast3) & Hq3 & Hs3).
  pose proof (flush_step_spec st3) as Hc3. rewrite Hq3 in Hc3. destruct Hc3 as (Hp3 & Hf3 & Hb3).
  specialize (Hlast3 Hf3 Hp3). rewrite Hf3 in Hch3. rewrite Hb3 in Hlast3. cbn [chain last_e] in *.
  assert (Hs : d_sent st3 = d_sent st) by (rewrite Hs3; subst st2; simpl_st; exact Hs1).
  pose proof (i_R st3 Hinv3) as HR3. pose proof (i_sentlen st3 Hinv3) as Hlen3. pose proof (i_sentlen st Hinv) as Hlen.
  rewrite Hs in Hlen3.
  exists st3. split; [reflexivity|]. split; [exact Hinv3|]. rewrite (i_prefix st3 Hinv3), Hs.
  repeat split; try assumption; try lia.
  replace (d_R st3) with (len (d_sent st)) by lia. unfold len. rewrite Nat2Z.id. apply firstn_all.
Qed.

Corollary reliable_round_from_any_run : forall n evs st, 1 <= n <= 254 -> drun (dinit n) evs = DOk st ->
  exists st', reliable_round st = DOk st' /\ quiescent st' = true /\ d_delivered st' = d_sent st.
Proof.
  intros n evs st Hn Hrun. destruct (drun_dinit n evs st Hn Hrun) as [Hinv <-].
  destruct (reliable_round_delivers st Hn Hinv) as (st' & Hrr & _ & HT & HR & HB & Hf & Hb & Hp & _ & Hdel).
  exists st'. split; [exact Hrr|]. split; [|exact Hdel].
  unfold quiescent. rewrite HT, HR, HB, Hf, Hb, Hp, Z.eqb_refl. reflexivity.
Qed.

Print Assumptions reliable_round_delivers.
Print Assumptions reliable_round_from_any_run.

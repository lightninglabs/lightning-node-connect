(* Model/Timeout.v (gbn/timeout_manager.go).  What is proved of the timeout in force rests on tm_step_rb
   (what one step does to the resend booster and its ghosts) and on the invariant tm_inv of the reachable
   states, for any `fboost` of which two facts are assumed.  The binary32 instance `fboost32` has them by
   sign reasoning on Flocq's constructors; Properties/C20.v puts them in. *)
From Coq Require Import ZArith List Bool Lia.
From Flocq Require Import Core BinarySingleNaN.
From LNC Require Import Model.Timeout.
Import ListNotations.
Open Scope Z_scope.

Lemma app_self_neq : forall (A : Type) (l : list A) (x : A), l ++ [x] <> l.
Proof.
  intros A l x H. apply (f_equal (@length A)) in H.
  rewrite app_length in H. cbn [length] in H. lia.
Qed.

Lemma run_ind : forall P : tm -> Prop,
  (forall m o, P m -> P (tm_step m o)) -> forall ops m, P m -> P (tm_run m ops).
Proof.
  intros P Hs ops. induction ops as [|o ops IH]; intros m H; [exact H | apply IH, Hs, H].
Qed.

Lemma lookup_remove : forall k k' l, lookup k' (remove k l) = if k' =? k then None else lookup k' l.
Proof.
  intros k k' l. unfold remove. induction l as [|[k1 v] l IH]; cbn [filter lookup fst].
  - destruct (k' =? k); reflexivity.
  - destruct (Z.eqb_spec k1 k) as [->|Hne]; cbn [negb lookup]; rewrite IH.
    + destruct (k' =? k); reflexivity.
    + destruct (Z.eqb_spec k' k) as [->|_]; [|reflexivity].
      destruct (Z.eqb_spec k k1); [congruence | reflexivity].
Qed.

Lemma lookup_insert : forall k k' v l, lookup k' (insert k v l) = if k' =? k then Some v else lookup k' l.
Proof.
  intros k k' v l. unfold insert. cbn [lookup]. rewrite lookup_remove.
  destruct (k' =? k); reflexivity.
Qed.

Definition tick_ok (o : top) : Prop :=
  match o with TTick dt => 0 <= dt | _ => True end.

Definition consistent (m : tm) : Prop :=
  forall seq t, lookup seq (t_sent m) = Some t -> lookup seq (g_fresh m) = Some t.

Fixpoint spaced (gap : Z) (l : list Z) : Prop :=
  match l with
  | a :: ((b :: _) as rest) => gap <= b - a /\ spaced gap rest
  | _ => True
  end.

Lemma spaced_snoc : forall gap l x,
  spaced gap l ->
  (forall l' y, l = l' ++ [y] -> gap <= x - y) ->
  spaced gap (l ++ [x]).
Proof.
  intros gap l x. induction l as [|a l IH]; intros Hs Hl.
  - exact I.
  - destruct l as [|b l].
    + cbn. split; [|exact I]. apply (Hl [] a). reflexivity.
    + change (gap <= b - a /\ spaced gap ((b :: l) ++ [x])).
      destruct Hs as [Hab Hs]. split; [exact Hab|].
      apply IH; [exact Hs|].
      intros l' y E. apply (Hl (a :: l') y). rewrite E. reflexivity.
Qed.

Lemma b_boost_cases : forall now b,
  b_boost now b = (b, false) \/
  b_boost now b = (mk_booster (b_count b + 1) (b_orig b) (b_limit b) (Some now), true).
Proof. intros now b. unfold b_boost. destruct (b_limit b && _); auto. Qed.

(* The first boost after a reset is also one base timeout after the reset:
   a limited booster only boosts when b_orig has elapsed since b_last, and
   b_reset sets b_last to the reset instant. *)
Lemma boost_effective_gap : forall now b x,
  b_limit b = true -> b_last b = Some x -> snd (b_boost now b) = true -> b_orig b <= now - x.
Proof.
  intros now b x Hl Hx. unfold b_boost. rewrite Hl, Hx. cbn [andb since].
  destruct (Z.ltb_spec (now - x) (b_orig b)); cbn [snd]; [discriminate | intros _; assumption].
Qed.

Lemma reset_sets_last : forall now b v,
  b_limit b = true -> b_last (b_reset now b v) = Some now /\ b_orig (b_reset now b v) = v
                      /\ b_count (b_reset now b v) = 0 /\ b_limit (b_reset now b v) = true.
Proof. intros now b v Hl. unfold b_reset. rewrite Hl. cbn. auto. Qed.

(* the resend timeout that update_resend computes from a sample sent at ts:
   max(1 s, multiplier * rtt), the product wrapping like an int64 *)
Definition rto (m : tm) (ts : Z) : Z :=
  let mul := wrap64 (t_mult m * (t_now m - ts)) in if mul <? second then second else mul.

Lemma rto_floor : forall m ts, second <= rto m ts.
Proof.
  intros m ts. unfold rto. cbv zeta.
  destruct (Z.ltb_spec (wrap64 (t_mult m * (t_now m - ts))) second); lia.
Qed.

(* What a step does to the resend booster and its ghosts: nothing; an
   effective boost on a retransmitted DATA; or a recomputation from a sample,
   which is fresh whenever the two maps agree (it comes from a SYN, or from an
   ACK whose entries in both maps are compared). *)
Inductive rb_effect (m : tm) (o : top) (m' : tm) : Prop :=
  | rb_quiet :
      t_rb m' = t_rb m -> g_samples m' = g_samples m -> g_boosts m' = g_boosts m -> rb_effect m o m'
  | rb_boost seq :
      o = TSent KData seq true -> snd (b_boost (t_now m) (t_rb m)) = true ->
      t_rb m' = mk_booster (b_count (t_rb m) + 1) (b_orig (t_rb m)) (b_limit (t_rb m)) (Some (t_now m)) ->
      g_samples m' = g_samples m -> g_boosts m' = g_boosts m ++ [t_now m] -> rb_effect m o m'
  | rb_sample ts fr :
      t_rb m' = b_reset (t_now m) (t_rb m) (rto m ts) ->
      g_samples m' = g_samples m ++ [(ts, t_now m, fr)] -> g_boosts m' = [] ->
      (consistent m -> fr = true) -> rb_effect m o m'.

Lemma tm_step_rb : forall m o, rb_effect m o (tm_step m o).
Proof.
  intros m o. destruct o as [k s r | k s | dt]; cbn [tm_step]; unfold tm_sent, tm_received, tm_tick.
  - destruct (t_static m); [now apply rb_quiet|]. destruct k, r; try now apply rb_quiet.
    destruct (b_boost_cases (t_now m) (t_rb m)) as [E|E].
    + rewrite E. now apply rb_quiet.
    + apply (rb_boost _ _ _ s); rewrite ?E; reflexivity.
  - destruct (t_static m); [now apply rb_quiet|]. destruct k; try now apply rb_quiet.
    + destruct (t_syn m) as [t0|]; [|now apply rb_quiet]. now apply (rb_sample _ _ _ t0 true).
    + destruct (t_syn m) as [t0|]; [|now apply rb_quiet]. now apply (rb_sample _ _ _ t0 true).
    + destruct (lookup s (t_sent m)) as [t0|] eqn:Hlk; [|now apply rb_quiet]. cbv zeta.
      destruct (negb (t_hasdyn m) || _); [|now apply rb_quiet].
      eapply (rb_sample _ _ _ t0); try reflexivity.
      intros Hc. rewrite (Hc _ _ Hlk). apply Z.eqb_refl.
  - now apply rb_quiet.
Qed.

Lemma consistent_remove : forall k sent fr,
  (forall seq t, lookup seq sent = Some t -> lookup seq fr = Some t) ->
  forall seq t, lookup seq (remove k sent) = Some t -> lookup seq (remove k fr) = Some t.
Proof.
  intros k sent fr H seq t. rewrite !lookup_remove. destruct (seq =? k); [discriminate | apply H].
Qed.

Lemma consistent_insert : forall k v sent fr,
  (forall seq t, lookup seq sent = Some t -> lookup seq fr = Some t) ->
  forall seq t, lookup seq (insert k v sent) = Some t -> lookup seq (insert k v fr) = Some t.
Proof.
  intros k v sent fr H seq t. rewrite !lookup_insert. destruct (seq =? k); [trivial | apply H].
Qed.

(* t_sent and g_fresh change together *)
Lemma consistent_step : forall m o, consistent m -> consistent (tm_step m o).
Proof.
  intros m o Hc. unfold consistent in *.
  destruct o as [k s r | k s | dt]; cbn [tm_step]; unfold tm_sent, tm_received, tm_tick.
  - destruct (t_static m); [exact Hc|]. destruct k, r; try exact Hc.
    + destruct (b_boost (t_now m) (t_rb m)). apply consistent_remove, Hc.
    + apply consistent_insert, Hc.
  - destruct (t_static m); [exact Hc|]. destruct k; try exact Hc.
    + destruct (t_syn m); exact Hc.
    + destruct (t_syn m); exact Hc.
    + destruct (lookup s (t_sent m)); [|exact Hc]. cbv zeta.
      destruct (negb (t_hasdyn m) || _); apply consistent_remove, Hc.
  - exact Hc.
Qed.

(* r0 is the resend timeout the manager was created with.  The spacing
   argument needs neither tick_ok nor "boosts <= now": an effective boost at
   `now` requires since now (b_last) >= b_orig, and b_last is the last recorded
   boost whenever one is recorded. *)
Record tm_inv (r0 : Z) (m : tm) : Prop := {
  tm_consistent : consistent m;
  tm_samples_fresh : Forall (fun s => snd s = true) (g_samples m);
  tm_limited : b_limit (t_rb m) = true;
  tm_spaced : spaced (b_orig (t_rb m)) (g_boosts m);
  tm_count : b_count (t_rb m) = Z.of_nat (length (g_boosts m));
  tm_last : forall l y, g_boosts m = l ++ [y] -> b_last (t_rb m) = Some y;
  tm_floor : b_orig (t_rb m) = r0 \/ second <= b_orig (t_rb m)
}.

Lemma tm_inv_step : forall r0 m o, tm_inv r0 m -> tm_inv r0 (tm_step m o).
Proof.
  intros r0 m o [Hc Hf Hl Hsp Hn Hlast Ho]. pose proof (consistent_step m o Hc) as Hc'.
  destruct (tm_step_rb m o) as [Erb Esm Ebo | seq _ Heff Erb Esm Ebo | ts fr Erb Esm Ebo Hfr].
  - constructor; rewrite ?Erb, ?Esm, ?Ebo; assumption.
  - (* an effective boost *)
    constructor; rewrite ?Erb, ?Esm, ?Ebo; cbn [b_limit b_orig b_count b_last]; try assumption.
    + apply spaced_snoc; [exact Hsp|].
      intros l y Ey. exact (boost_effective_gap _ _ y Hl (Hlast _ _ Ey) Heff).
    + rewrite app_length, Nat2Z.inj_add, Hn. reflexivity.
    + intros l y Ey. apply app_inj_tail in Ey. destruct Ey as [_ <-]. reflexivity.
  - (* a recomputation *)
    destruct (reset_sets_last (t_now m) (t_rb m) (rto m ts) Hl) as (_ & Eorig & Ecount & Elim).
    constructor; rewrite ?Erb, ?Esm, ?Ebo, ?Eorig; try assumption.
    + apply Forall_app. split; [exact Hf|]. constructor; [exact (Hfr Hc) | constructor].
    + exact I.
    + intros [|? ?] y Ey; discriminate.
    + right. apply rto_floor.
Qed.

Lemma tm_inv_init : forall static resend mult freq hs, tm_inv resend (tm_init static resend mult freq hs).
Proof.
  intros. constructor; cbn; auto; try discriminate.
  intros [|? ?] y Ey; discriminate.
Qed.

Theorem tm_inv_reachable : forall static resend mult freq hs ops,
  tm_inv resend (tm_run (tm_init static resend mult freq hs) ops).
Proof. intros. apply run_ind; [apply tm_inv_step | apply tm_inv_init]. Qed.

Theorem consistent_reachable : forall static resend mult freq hs ops,
  consistent (tm_run (tm_init static resend mult freq hs) ops).
Proof. intros. apply (tm_consistent resend), tm_inv_reachable. Qed.

(* samples come only from packets that were not retransmitted *)
Theorem samples_fresh : forall static resend mult freq hs ops,
  Forall (fun s => snd s = true) (g_samples (tm_run (tm_init static resend mult freq hs) ops)).
Proof. intros. apply (tm_samples_fresh resend), tm_inv_reachable. Qed.

Theorem boost_rate_gen : forall static resend mult freq hs ops,
  let m := tm_run (tm_init static resend mult freq hs) ops in
  spaced (b_orig (t_rb m)) (g_boosts m) /\ b_count (t_rb m) = Z.of_nat (length (g_boosts m)).
Proof.
  intros static resend mult freq hs ops m.
  split; [apply (tm_spaced resend) | apply (tm_count resend)]; apply tm_inv_reachable.
Qed.

(* hence the resend timeout in force is orig + fboost orig (#boosts), whatever the float arithmetic *)
Corollary resend_value : forall fboost static resend mult freq hs ops,
  let m := tm_run (tm_init static resend mult freq hs) ops in
  get_resend fboost m = b_orig (t_rb m) + fboost (b_orig (t_rb m)) (Z.of_nat (length (g_boosts m))).
Proof.
  intros fboost static resend mult freq hs ops m. unfold get_resend, b_current.
  rewrite (tm_count resend m) by apply tm_inv_reachable. reflexivity.
Qed.

(* static mode: Sent and Received return the manager as it is *)
Lemma static_step : forall m o, t_static m = true ->
  t_static (tm_step m o) = true /\ t_rb (tm_step m o) = t_rb m /\ t_hb (tm_step m o) = t_hb m.
Proof.
  intros m o H. destruct o; cbn [tm_step]; unfold tm_sent, tm_received, tm_tick; rewrite ?H; auto.
Qed.

Lemma static_run : forall m ops, t_static m = true ->
  t_static (tm_run m ops) = true /\ t_rb (tm_run m ops) = t_rb m /\ t_hb (tm_run m ops) = t_hb m.
Proof.
  intros m ops H.
  apply (run_ind (fun m' => t_static m' = true /\ t_rb m' = t_rb m /\ t_hb m' = t_hb m)); [|auto].
  intros m1 o (Hs & Hr & Hh). destruct (static_step m1 o Hs) as (Hs' & Er & Eh).
  rewrite Er, Eh. auto.
Qed.

Section Parametric.
  Variable fboost : Z -> Z -> Z.
  Hypothesis fboost_zero : forall orig, fboost orig 0 = 0.
  Hypothesis fboost_nonneg : forall orig count, 0 <= orig -> 0 <= count -> 0 <= fboost orig count.

  Theorem floor : forall mult freq hs ops, 0 < mult -> 0 < freq ->
    second <= get_resend fboost (tm_run (tm_init false second mult freq hs) ops).
  Proof.
    intros mult freq hs ops _ _.
    destruct (tm_inv_reachable false second mult freq hs ops) as [_ _ _ _ Hn _ Ho].
    unfold get_resend, b_current.
    set (b := t_rb (tm_run (tm_init false second mult freq hs) ops)) in *.
    assert (second <= b_orig b) by lia.
    assert (0 < second) by reflexivity.
    pose proof (fboost_nonneg (b_orig b) (b_count b)). lia.
  Qed.

  Theorem static : forall resend mult freq hs ops,
    get_resend fboost (tm_run (tm_init true resend mult freq hs) ops) = resend
    /\ get_handshake fboost (tm_run (tm_init true resend mult freq hs) ops) = hs.
  Proof.
    intros resend mult freq hs ops.
    unfold get_resend, get_handshake, b_current.
    destruct (static_run (tm_init true resend mult freq hs) ops eq_refl) as (_ & -> & ->). cbn.
    rewrite !fboost_zero. lia.
  Qed.

  Theorem reset_on_sample : forall m o ts tr fr,
    g_samples (tm_step m o) = g_samples m ++ [(ts, tr, fr)] ->
    get_resend fboost (tm_step m o)
      = (let mul := wrap64 (t_mult m * (tr - ts)) in if mul <? second then second else mul)
    /\ tr = t_now m.
  Proof.
    intros m o ts tr fr Hsm. unfold get_resend, b_current.
    destruct (tm_step_rb m o) as [_ E _ | seq _ _ _ E _ | ts' fr' -> E _ _]; rewrite E in Hsm.
    - symmetry in Hsm. destruct (app_self_neq _ _ _ Hsm).
    - symmetry in Hsm. destruct (app_self_neq _ _ _ Hsm).
    - apply app_inv_head in Hsm. injection Hsm as <- <- _.
      unfold b_reset. cbn [b_orig b_count]. rewrite fboost_zero. split; [apply Z.add_0_r | reflexivity].
  Qed.

  (* only samples and retransmissions change the timeout *)
  Theorem resend_stable : forall m o,
    g_samples (tm_step m o) = g_samples m ->
    (forall seq, o <> TSent KData seq true) ->
    get_resend fboost (tm_step m o) = get_resend fboost m.
  Proof.
    intros m o Hsm Hne. unfold get_resend.
    destruct (tm_step_rb m o) as [-> _ _ | seq -> _ _ _ _ | ts fr _ E _ _].
    - reflexivity.
    - destruct (Hne seq eq_refl).
    - rewrite E in Hsm. destruct (app_self_neq _ _ _ Hsm).
  Qed.
End Parametric.

(* Sign reasoning on the constructors of binary_float / spec_float; no real
   numbers.  Generic in the format. *)
Section FloatSigns.
  Variables prec emax : Z.
  Context (prec_gt_0_ : Prec_gt_0 prec).
  Context (prec_lt_emax_ : Prec_lt_emax prec emax).

  Notation bf := (binary_float prec emax).

  (* every rounding result carries the sign it was given (NaN has sign false) *)
  Lemma sign_binary_round_aux_false : forall mode mx ex lx,
    sign_SF (binary_round_aux prec emax mode false mx ex lx) = false.
  Proof.
    intros mode mx ex lx. unfold binary_round_aux.
    destruct (SpecFloat.shr_fexp prec emax mx ex lx) as [mrs' e'].
    destruct (SpecFloat.shr_fexp prec emax _ e' SpecFloat.loc_Exact) as [mrs'' e''].
    destruct (SpecFloat.shr_m mrs'') as [|p|p]; try reflexivity.
    unfold binary_fit_aux, binary_overflow.
    destruct (e'' <=? emax - prec); [reflexivity|].
    destruct (overflow_to_inf mode false); reflexivity.
  Qed.

  Lemma sign_binary_round_false : forall mode mx ex,
    sign_SF (binary_round prec emax mode false mx ex) = false.
  Proof.
    intros mode mx ex. unfold binary_round.
    destruct (shl_align_fexp prec emax mx ex) as [mz ez].
    apply sign_binary_round_aux_false.
  Qed.

  Lemma Bsign_normalize_nonneg : forall mode m e,
    0 <= m -> Bsign (binary_normalize prec emax prec_gt_0_ prec_lt_emax_ mode m e false) = false.
  Proof.
    intros mode m e Hm. unfold binary_normalize. destruct m as [|p|p].
    - reflexivity.
    - rewrite Bsign_SF2B. apply sign_binary_round_false.
    - lia.
  Qed.

  Lemma Bsign_Bmult_nonneg : forall mode (x y : bf),
    Bsign x = false -> Bsign y = false -> Bsign (Bmult mode x y) = false.
  Proof.
    intros mode [sx|sx| |sx mx ex Hx] [sy|sy| |sy my ey Hy] Hsx Hsy;
      cbn [Bsign] in Hsx, Hsy; subst; try reflexivity.
    unfold Bmult. rewrite Bsign_SF2B. apply sign_binary_round_aux_false.
  Qed.

  Lemma Bsign_Bdiv_nonneg : forall mode (x y : bf),
    Bsign x = false -> Bsign y = false -> Bsign (Bdiv mode x y) = false.
  Proof.
    intros mode [sx|sx| |sx mx ex Hx] [sy|sy| |sy my ey Hy] Hsx Hsy;
      cbn [Bsign] in Hsx, Hsy; subst; try reflexivity.
    unfold Bdiv. rewrite Bsign_SF2B.
    destruct (SpecFloat.SFdiv_core_binary prec emax (Z.pos mx) ex (Z.pos my) ey) as [[mz ez] lz].
    apply sign_binary_round_aux_false.
  Qed.

  Lemma SFnearbyint_ZR_nonneg : forall s m e, 0 <= SFnearbyint_binary_aux prec mode_ZR s m e.
  Proof.
    intros s m e. unfold SFnearbyint_binary_aux.
    destruct (Z.leb_spec 0 e) as [He|He].
    - apply Z.mul_nonneg_nonneg; [lia | apply Z.pow_nonneg; lia].
    - unfold choice_mode. destruct (e <? - prec).
      + cbn. lia.
      + set (mrs := {| SpecFloat.shr_m := Z.pos m; SpecFloat.shr_r := false; SpecFloat.shr_s := false |}).
        destruct (le_shr_le mrs e (- e)) as [[H0 _] _]; [cbn; lia | lia |].
        apply Z.mul_nonneg_cancel_l in H0; [exact H0|].
        apply Z.pow_pos_nonneg; lia.
  Qed.

  Lemma Btrunc_nonneg : forall x : bf, Bsign x = false -> 0 <= Btrunc x.
  Proof.
    intros [s|s| |s m e H] Hs; cbn [Btrunc]; try lia.
    cbn [Bsign] in Hs. subst s. cbn [cond_Zopp]. apply SFnearbyint_ZR_nonneg.
  Qed.

  Lemma Btrunc_Bmult_zero : forall mode (x : bf), Btrunc (Bmult mode x (B754_zero false)) = 0.
  Proof. intros mode [s|s| |s m e H]; reflexivity. Qed.
End FloatSigns.

Lemma f32_of_Z_nonneg : forall x, 0 <= x -> Bsign (f32_of_Z x) = false.
Proof. intros x Hx. unfold f32_of_Z. apply Bsign_normalize_nonneg. exact Hx. Qed.

Theorem fboost32_zero : forall num den orig, fboost32 num den orig 0 = 0.
Proof.
  intros num den orig. unfold fboost32, f32_trunc, f32_mul at 1.
  (* f32_of_Z 0 computes to B754_zero false *)
  apply Btrunc_Bmult_zero.
Qed.

(* `den` need not be positive for the sign argument: 0/0 = NaN truncates to 0 *)
Theorem fboost32_nonneg : forall num den orig count,
  0 <= num -> 0 <= den -> 0 <= orig -> 0 <= count -> 0 <= fboost32 num den orig count.
Proof.
  intros num den orig count Hn Hd Ho Hc.
  unfold fboost32, f32_trunc, f32_mul, f32_pct, f32_div.
  apply Btrunc_nonneg.
  apply Bsign_Bmult_nonneg; [|apply f32_of_Z_nonneg; exact Hc].
  apply Bsign_Bmult_nonneg; [apply f32_of_Z_nonneg; exact Ho|].
  apply Bsign_Bdiv_nonneg; apply f32_of_Z_nonneg; assumption.
Qed.

Print Assumptions floor.
Print Assumptions static.
Print Assumptions reset_on_sample.
Print Assumptions resend_stable.
Print Assumptions consistent_reachable.
Print Assumptions samples_fresh.
Print Assumptions boost_rate_gen.
Print Assumptions fboost32_zero.
Print Assumptions fboost32_nonneg.
(* for comparison: the axioms above are already those of the *definition*
   fboost32 (Flocq's Bmult/Bdiv/binary_normalize embed validity proofs that go
   through the real-number specifications); the proofs in this file add none. *)
Print Assumptions fboost32.

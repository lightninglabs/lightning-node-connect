(* The record layer of Model/Noise.v.
   C08: the (key, nonce) schedule, no position of the ciphertext stream produced twice, lock-step round trip.
   C02: on any input the reader returns a prefix of the records the writer sealed; a failure is final; the
   first deviation from the honest stream is an error; bytes of the other direction never open. *)
From Coq Require Import ZArith List Bool Lia.
From LNC Require Import Noise.
Import ListNotations.
Open Scope Z_scope.

Definition is_prefix {A} (a b : list A) : Prop := exists t, b = a ++ t.
Definition wf (recs : list (list Z)) : Prop := Forall (fun p => len p <= 65535) recs.

Lemma is_prefix_nil : forall A (l : list A), is_prefix [] l.
Proof. intros; exists l; reflexivity. Qed.

Lemma is_prefix_cons : forall A (x : A) a b, is_prefix a b -> is_prefix (x :: a) (x :: b).
Proof. intros A x a b [t ->]. exists t. reflexivity. Qed.

Lemma is_prefix_skipn : forall A (a l : list A) k, is_prefix a (skipn k l) -> is_prefix (firstn k l ++ a) l.
Proof.
  intros A a l k [t E]. exists t. rewrite <- app_assoc, <- E. symmetry; apply firstn_skipn.
Qed.

Lemma is_prefix_trans : forall A (a b c : list A), is_prefix a b -> is_prefix b c -> is_prefix a c.
Proof.
  intros A a b c [t ->] [u ->]. exists (t ++ u). rewrite app_assoc. reflexivity.
Qed.

Lemma is_prefix_concat : forall A (a b : list (list A)),
  is_prefix a b -> is_prefix (concat a) (concat b).
Proof.
  intros A a b [t ->]. exists (concat t). apply concat_app.
Qed.

Lemma len_nonneg : forall A (l : list A), 0 <= len l.
Proof. intros; unfold len; lia. Qed.

Lemma len_app : forall A (a b : list A), len (a ++ b) = len a + len b.
Proof. intros; unfold len; rewrite app_length; lia. Qed.

Lemma skipn_nth : forall A (l : list A) k p,
  nth_error l k = Some p -> skipn k l = p :: skipn (S k) l.
Proof.
  induction l as [|x l IH]; intros [|k] p H; cbn in H; try discriminate.
  - injection H as ->. reflexivity.
  - cbn [skipn]. rewrite (IH k p H). reflexivity.
Qed.

Lemma cut_app : forall A n (a b : list A), len a = n ->
  firstn (Z.to_nat n) (a ++ b) = a /\ skipn (Z.to_nat n) (a ++ b) = b.
Proof.
  intros A n a b H. replace (Z.to_nat n) with (length a) by (unfold len in H; lia).
  rewrite firstn_app, skipn_app, Nat.sub_diag, firstn_all, skipn_all.
  split; [apply app_nil_r | reflexivity].
Qed.

Lemma take_spec : forall A n (l a b : list A), take n l = Some (a, b) -> l = a ++ b.
Proof.
  unfold take; intros A n l a b H. destruct (len l <? n); [discriminate|].
  injection H as <- <-. symmetry; apply firstn_skipn.
Qed.

Lemma take_len : forall A n (l a b : list A), 0 <= n -> take n l = Some (a, b) -> len a = n.
Proof.
  unfold take; intros A n l a b Hn H. destruct (Z.ltb_spec (len l) n); [discriminate|].
  injection H as <- <-. unfold len in *. rewrite firstn_length. lia.
Qed.

Lemma take_app : forall A n (a b : list A), len a = n -> take n (a ++ b) = Some (a, b).
Proof.
  intros A n a b H. unfold take. destruct (cut_app A n a b H) as [-> ->].
  destruct (Z.ltb_spec (len (a ++ b)) n) as [Hlt|_]; [|reflexivity].
  rewrite len_app in Hlt. pose proof (len_nonneg _ b). lia.
Qed.

Lemma kn_next_of : forall m, kn_next (kn_of m) = kn_of (m + 1).
Proof.
  intros m. unfold kn_next, kn_of, rotation.
  destruct (Z.eqb_spec (m mod 1000 + 1) 1000) as [E|E]; f_equal;
    Z.div_mod_to_equations; lia.
Qed.

(* C08: the m-th operation of a direction uses key m / 1000 and nonce m mod 1000 *)
Theorem kn_iter_spec : forall m : nat, kn_iter m (0, 0) = kn_of (Z.of_nat m).
Proof.
  induction m as [|m IH].
  - reflexivity.
  - cbn [kn_iter]. rewrite IH, kn_next_of. f_equal; f_equal; lia.
Qed.

(* also for negative m (floor division) *)
Lemma kn_of_inj_gen : forall m m', kn_of m = kn_of m' -> m = m'.
Proof.
  intros m m' H. unfold kn_of, rotation in H. injection H as Hq Hr.
  pose proof (Z.div_mod m 1000). pose proof (Z.div_mod m' 1000). lia.
Qed.

(* the range hypotheses are not used *)
Theorem kn_of_inj : forall m m', 0 <= m -> 0 <= m' -> kn_of m = kn_of m' -> m = m'.
Proof. intros m m' _ _. apply kn_of_inj_gen. Qed.

(* C08: two operations of a direction never share a (key, nonce) pair *)
Corollary kn_iter_inj : forall a b : nat, kn_iter a (0, 0) = kn_iter b (0, 0) -> a = b.
Proof.
  intros a b H. rewrite !kn_iter_spec in H. apply kn_of_inj_gen in H. lia.
Qed.

Lemma tags_from_length : forall dir op n off, length (tags_from dir op off n) = n.
Proof. induction n as [|n IH]; intros off; cbn [tags_from length]; [reflexivity|]. rewrite IH; reflexivity. Qed.

Lemma In_tags_from : forall dir op n off b,
  In b (tags_from dir op off n) -> exists o, b = Honest dir op o /\ off <= o < off + Z.of_nat n.
Proof.
  induction n as [|n IH]; intros off b H; cbn [tags_from] in H.
  - destruct H.
  - destruct H as [<-|H].
    + exists off. split; [reflexivity | lia].
    + apply IH in H. destruct H as (o & -> & Ho). exists o. split; [reflexivity | lia].
Qed.

Lemma seal_tags_len : forall dir op L, 0 <= L -> len (seal_tags dir op L) = L + mac.
Proof.
  intros dir op L HL. unfold seal_tags, len. rewrite tags_from_length. unfold mac. lia.
Qed.

(* The writer's stream is the ciphertext of operation 0, then that of operation 1, ..., and the ciphertext
   of operation op is Honest dir op 0, Honest dir op 1, ...  So, building the stream from the back, each
   block is put in front of bytes of later operations only: *)
Definition sealed_from (dir : bool) (lo : Z) (l : list wbyte) : Prop :=
  NoDup l /\ Forall (fun b => exists op off, b = Honest dir op off /\ lo <= op) l.

Lemma sealed_from_block : forall dir op n off l,
  sealed_from dir (op + 1) l -> sealed_from dir op (tags_from dir op off n ++ l).
Proof.
  intros dir op n off l [Nl Fl]. rewrite Forall_forall in Fl. split.
  - revert off. induction n as [|n IH]; intros off; cbn [tags_from app]; [exact Nl|].
    constructor; [|apply IH]. intro Hin. apply in_app_or in Hin. destruct Hin as [Hin|Hin].
    + apply In_tags_from in Hin. destruct Hin as (o & E & Ho). injection E as E. lia.
    + destruct (Fl _ Hin) as (op' & off' & E & Hop). injection E as E _. lia.
  - apply Forall_forall. intros b Hin. apply in_app_or in Hin. destruct Hin as [Hin|Hin].
    + apply In_tags_from in Hin. destruct Hin as (o & -> & _). exists op, o. split; [reflexivity | lia].
    + destruct (Fl _ Hin) as (op' & off' & -> & Hop). exists op', off'. split; [reflexivity | lia].
Qed.

Lemma sealed_from_writer : forall dir recs k, sealed_from dir (2 * k) (writer_stream_from dir k recs).
Proof.
  induction recs as [|p recs IH]; intros k; cbn [writer_stream_from].
  - split; constructor.
  - unfold record_tags, seal_tags. rewrite <- app_assoc.
    apply sealed_from_block, sealed_from_block.
    replace (2 * k + 1 + 1) with (2 * (k + 1)) by lia. apply IH.
Qed.

(* C08: everything the writer emits is sealed in its own direction *)
Theorem writer_all_sealed : forall dir recs,
  Forall (fun b => exists op off, b = Honest dir op off) (writer_stream dir recs).
Proof.
  intros dir recs. eapply Forall_impl; [|apply (sealed_from_writer dir recs 0)].
  intros b (op & off & -> & _). eauto.
Qed.

(* C08: no (operation, offset) is ever produced twice *)
Theorem writer_nodup : forall dir recs, NoDup (writer_stream dir recs).
Proof. intros dir recs. apply (sealed_from_writer dir recs 0). Qed.

Lemma record_tags_hd : forall dir k p, exists t, record_tags dir k p = Honest dir (2 * k) 0 :: t.
Proof. intros dir k p. eexists. reflexivity. Qed.

(* C08: the ciphertext of a record tells its position, whatever the plaintexts *)
Lemma record_tags_inj : forall dir k k' p p', record_tags dir k p = record_tags dir k' p' -> k = k'.
Proof.
  intros dir k k' p p' H.
  destruct (record_tags_hd dir k p) as (t & E). destruct (record_tags_hd dir k' p') as (t' & E').
  rewrite E, E' in H. assert (2 * k = 2 * k') by congruence. lia.
Qed.

(* The ideal AEAD.  wbyte_eqb is not reflexive (Junk differs from itself), hence the two _refl lemmas for
   honest bytes only. *)

Lemma wbyte_eqb_eq : forall a b, wbyte_eqb a b = true -> a = b.
Proof.
  intros [d1 o1 f1|] [d2 o2 f2|] H; cbn [wbyte_eqb] in H; try discriminate.
  apply andb_prop in H. destruct H as [H Hf]. apply andb_prop in H. destruct H as [Hd Ho].
  apply eqb_prop in Hd. apply Z.eqb_eq in Ho. apply Z.eqb_eq in Hf. subst. reflexivity.
Qed.

Lemma wbyte_eqb_honest_refl : forall d o f, wbyte_eqb (Honest d o f) (Honest d o f) = true.
Proof. intros. cbn [wbyte_eqb]. rewrite eqb_reflx, !Z.eqb_refl. reflexivity. Qed.

Lemma wlist_eqb_eq : forall a b, wlist_eqb a b = true -> a = b.
Proof.
  induction a as [|x a IH]; intros [|y b] H; cbn [wlist_eqb] in H; try discriminate; [reflexivity|].
  apply andb_prop in H. destruct H as [Hx Hr]. apply wbyte_eqb_eq in Hx. apply IH in Hr. subst. reflexivity.
Qed.

Lemma wlist_eqb_tags_refl : forall d o n f, wlist_eqb (tags_from d o f n) (tags_from d o f n) = true.
Proof.
  induction n as [|n IH]; intros f; cbn [tags_from wlist_eqb]; [reflexivity|].
  rewrite wbyte_eqb_honest_refl, IH. reflexivity.
Qed.

Lemma open_ideal_iff : forall dir recs op c p,
  open_ideal dir recs op c = Some p <-> plain_of recs op = Some p /\ c = seal_tags dir op (len p).
Proof.
  intros dir recs op c p. unfold open_ideal.
  destruct (plain_of recs op) as [q|]; [|split; [discriminate | intros [H _]; discriminate H]].
  split.
  - destruct (wlist_eqb c (seal_tags dir op (len q))) eqn:E; [|discriminate].
    intros H; injection H as ->. apply wlist_eqb_eq in E. auto.
  - intros [H ->]. injection H as ->. unfold seal_tags. rewrite wlist_eqb_tags_refl. reflexivity.
Qed.

Lemma plain_of_hdr : forall recs k,
  plain_of recs (2 * Z.of_nat k) = option_map (fun p => be16 (len p)) (nth_error recs k).
Proof.
  intros recs k. unfold plain_of.
  replace (2 * Z.of_nat k / 2) with (Z.of_nat k) by (Z.div_mod_to_equations; lia).
  replace ((2 * Z.of_nat k) mod 2) with 0 by (Z.div_mod_to_equations; lia).
  rewrite Nat2Z.id. destruct (nth_error recs k); [|reflexivity].
  destruct (Z.ltb_spec (2 * Z.of_nat k) 0); [lia | reflexivity].
Qed.

Lemma plain_of_body : forall recs k, plain_of recs (2 * Z.of_nat k + 1) = nth_error recs k.
Proof.
  intros recs k. unfold plain_of.
  replace ((2 * Z.of_nat k + 1) / 2) with (Z.of_nat k) by (Z.div_mod_to_equations; lia).
  replace ((2 * Z.of_nat k + 1) mod 2) with 1 by (Z.div_mod_to_equations; lia).
  rewrite Nat2Z.id. destruct (nth_error recs k); [|reflexivity].
  destruct (Z.ltb_spec (2 * Z.of_nat k + 1) 0); [lia | reflexivity].
Qed.

(* the left-hand side is what read_message computes from the opened header *)
Lemma be16_decode : forall x, 0 <= x <= 65535 ->
  match be16 x with [hi; lo] => hi * 256 + lo | _ => 0 end = x.
Proof. intros x Hx. unfold be16. Z.div_mod_to_equations. lia. Qed.

Lemma read_message_failed : forall dir recs r input,
  r_failed r = true -> read_message dir recs r input = (RErrMac, r, input).
Proof. intros dir recs r input H. unfold read_message. rewrite H. reflexivity. Qed.

(* a reader that has returned k records stands at operation 2k *)
Lemma read_message_honest : forall dir recs k p rest,
  nth_error recs k = Some p -> len p <= 65535 ->
  read_message dir recs (mk_reader (2 * Z.of_nat k) false) (record_tags dir (Z.of_nat k) p ++ rest)
  = (ROk p, mk_reader (2 * Z.of_nat (S k)) false, rest).
Proof.
  intros dir recs k p rest Hn Hlen.
  pose proof (len_nonneg _ p) as Hp0.
  assert (O1 : open_ideal dir recs (2 * Z.of_nat k) (seal_tags dir (2 * Z.of_nat k) 2) = Some (be16 (len p)))
    by (apply open_ideal_iff; rewrite plain_of_hdr, Hn; split; reflexivity).
  assert (O2 : open_ideal dir recs (2 * Z.of_nat k + 1) (seal_tags dir (2 * Z.of_nat k + 1) (len p)) = Some p)
    by (apply open_ideal_iff; rewrite plain_of_body; split; [assumption | reflexivity]).
  unfold read_message, record_tags. cbn [r_failed r_op]. rewrite <- app_assoc.
  rewrite (take_app _ 18) by (rewrite seal_tags_len by lia; reflexivity).
  rewrite O1, be16_decode by lia. cbv zeta.
  rewrite (take_app _ (len p + mac)) by (apply seal_tags_len; lia).
  rewrite O2. f_equal. f_equal. f_equal. lia.
Qed.

(* the converse, for every read on any input; anything but a record leaves the reader failed (the latch).
   The `match` (or `let '(..)`) specifications of this file and of NoiseStream.v are used in one way:
   `pose proof (X_spec ..) as S`, then `rewrite H in S` with the known result H of the call, or `destruct` of
   the call, and S reduces to the case at hand. *)
Lemma read_message_spec : forall dir recs r input,
  match read_message dir recs r input with
  | (ROk p, r', rest) => exists lenb,
      plain_of recs (r_op r) = Some lenb /\ plain_of recs (r_op r + 1) = Some p
      /\ r' = mk_reader (r_op r + 2) false
      /\ input = seal_tags dir (r_op r) (len lenb) ++ seal_tags dir (r_op r + 1) (len p) ++ rest
  | (_, r', _) => r_failed r' = true
  end.
Proof.
  intros dir recs [op [|]] input; [reflexivity|]. unfold read_message. cbn [r_failed r_op].
  destruct (take 18 input) as [[hdr rest1]|] eqn:T1; [|reflexivity].
  destruct (open_ideal dir recs op hdr) as [lenb|] eqn:O1; [|reflexivity]. cbv zeta.
  destruct (take _ rest1) as [[body rest2]|] eqn:T2; [|reflexivity].
  destruct (open_ideal dir recs (op + 1) body) as [p|] eqn:O2; [|reflexivity].
  apply take_spec in T1. apply take_spec in T2.
  apply open_ideal_iff in O1. apply open_ideal_iff in O2.
  destruct O1 as [P1 ->]. destruct O2 as [P2 ->]. subst input rest1. eauto.
Qed.

Lemma read_message_step : forall dir recs k input,
  match read_message dir recs (mk_reader (2 * Z.of_nat k) false) input with
  | (ROk p, r', rest) =>
      nth_error recs k = Some p /\ r' = mk_reader (2 * Z.of_nat (S k)) false
      /\ input = record_tags dir (Z.of_nat k) p ++ rest
  | (_, r', _) => r_failed r' = true
  end.
Proof.
  intros dir recs k input.
  pose proof (read_message_spec dir recs (mk_reader (2 * Z.of_nat k) false) input) as H. cbn [r_op] in H.
  destruct (read_message dir recs _ input) as [[[p| |] r'] rest]; [|exact H ..].
  destruct H as (lenb & P1 & P2 & -> & ->).
  rewrite plain_of_body in P2. rewrite plain_of_hdr, P2 in P1. injection P1 as <-.
  split; [assumption|]. split; [f_equal; lia|].
  unfold record_tags. rewrite <- app_assoc. reflexivity.
Qed.

Lemma oks_app : forall a b, oks (a ++ b) = oks a ++ oks b.
Proof. intros; unfold oks; apply flat_map_app. Qed.

Lemma oks_map_ok : forall recs, oks (map ROk recs) = recs.
Proof. induction recs as [|p recs IH]; [reflexivity|]. cbn. f_equal. exact IH. Qed.

Lemma oks_segs_failed : forall dir recs fuel r cur more,
  r_failed r = true -> oks (read_segs fuel dir recs r cur more) = [].
Proof.
  induction fuel as [|f IH]; intros r cur more H; [reflexivity|].
  cbn [read_segs]. unfold read_message_t. rewrite H. apply IH; assumption.
Qed.

(* read_all is read_segs over a transport that delivers everything in one segment *)
Lemma read_all_segs : forall dir recs fuel r input,
  read_all fuel dir recs r input = read_segs fuel dir recs r input [].
Proof.
  intros dir recs. induction fuel as [|f IH]; intros r input; [reflexivity|].
  cbn [read_all read_segs]. unfold read_message_t.
  destruct (r_failed r) eqn:Hf.
  - rewrite read_message_failed by assumption. f_equal. apply IH.
  - destruct input as [|b input].
    + unfold read_message. rewrite Hf. reflexivity.
    + destruct (read_message dir recs r (b :: input)) as [[[p| |] r'] rest];
        [f_equal; apply IH | f_equal; apply IH | reflexivity].
Qed.

(* The records a run returns, one read at a time.  A read that returns no record leaves the reader failed,
   so nothing follows, except when not a byte was there to be consumed and the transport has another segment:
   then the reader goes on as it was. *)
Lemma oks_read_segs_S : forall dir recs f r cur more,
  oks (read_segs (S f) dir recs r cur more) =
  match read_message dir recs r cur with
  | (ROk p, r', rest) => p :: oks (read_segs f dir recs r' rest more)
  | _ => match cur, more with
         | [], s :: more' => oks (read_segs f dir recs r s more')
         | _, _ => []
         end
  end.
Proof.
  intros dir recs f r cur more. cbn [read_segs]. unfold read_message_t.
  destruct (r_failed r) eqn:Hf.
  - rewrite read_message_failed by assumption. cbv iota.
    change (oks (RErrMac :: ?l)) with (oks l).
    rewrite oks_segs_failed by assumption.
    destruct cur, more; try reflexivity. symmetry; apply oks_segs_failed; assumption.
  - destruct cur as [|b cur].
    + unfold read_message. rewrite Hf. destruct more; reflexivity.
    + pose proof (read_message_spec dir recs r (b :: cur)) as Hf'.
      destruct (read_message dir recs r (b :: cur)) as [[[p| |] r'] rest]; [reflexivity | |].
      * apply oks_segs_failed; assumption.
      * destruct more; [reflexivity | apply oks_segs_failed; assumption].
Qed.

Lemma oks_read_all_S : forall dir recs f r input,
  oks (read_all (S f) dir recs r input) =
  match read_message dir recs r input with
  | (ROk p, r', rest) => p :: oks (read_all f dir recs r' rest)
  | _ => []
  end.
Proof.
  intros dir recs f r input. rewrite read_all_segs, oks_read_segs_S.
  destruct (read_message dir recs r input) as [[[p| |] r'] rest];
    [rewrite read_all_segs; reflexivity | destruct input; reflexivity ..].
Qed.

Lemma prefix_segs_from : forall dir recs fuel k cur more,
  is_prefix (oks (read_segs fuel dir recs (mk_reader (2 * Z.of_nat k) false) cur more)) (skipn k recs).
Proof.
  intros dir recs. induction fuel as [|f IH]; intros k cur more; [apply is_prefix_nil|].
  rewrite oks_read_segs_S. pose proof (read_message_step dir recs k cur) as E.
  destruct (read_message dir recs _ cur) as [[[p| |] r'] rest].
  2, 3: destruct cur, more; try apply is_prefix_nil; apply IH.
  destruct E as (Hn & -> & _).
  rewrite (skipn_nth _ _ _ _ Hn). apply is_prefix_cons, IH.
Qed.

(* C02: the records returned are a prefix of the records sealed, for any input, also over a transport that
   fails transiently while the reader retries *)
Theorem prefix_always_transient : forall dir recs seg segs fuel,
  is_prefix (oks (read_segs fuel dir recs (mk_reader 0 false) seg segs)) recs.
Proof.
  (* k = 0: `mk_reader (2 * Z.of_nat 0) false` and `skipn 0 recs` convert to `mk_reader 0 false` and `recs`
     (below also `writer_stream_from dir (Z.of_nat 0)` to `writer_stream dir`), so what is stated from record k
     on applies to a run from the start as it is *)
  intros dir recs seg segs fuel. apply (prefix_segs_from dir recs fuel 0%nat seg segs).
Qed.

Theorem prefix_always : forall dir recs input fuel,
  is_prefix (oks (read_all fuel dir recs (mk_reader 0 false) input)) recs.
Proof. intros dir recs input fuel. rewrite read_all_segs. apply prefix_always_transient. Qed.

(* without the latch (an error inside a record leaves the reader usable) the claim is false: the
   reader takes the body of a 2-byte record for a header. Stated over the model of such a reader. *)
Definition read_message_nolatch (dir : bool) (recs : list (list Z)) (r : reader) (input : list wbyte)
  : rres * reader * list wbyte :=
  let '(res, r', rest) := read_message_t dir recs r input in
  match res with
  | RErrShort => (res, mk_reader (r_op r') false, rest)
  | _ => (res, r', rest)
  end.

Fixpoint read_segs_nolatch (fuel : nat) (dir : bool) (recs : list (list Z)) (r : reader)
  (cur : list wbyte) (more : list (list wbyte)) : list rres :=
  match fuel with
  | O => []
  | S f =>
      let '(res, r', rest) := read_message_nolatch dir recs r cur in
      res :: match res with
             | RErrShort => match more with
                            | [] => []
                            | s :: more' => read_segs_nolatch f dir recs r' s more'
                            end
             | _ => read_segs_nolatch f dir recs r' rest more
             end
  end.

Definition nolatch_recs : list (list Z) := [[0; 2]; [104; 101; 108; 108; 111]].
Definition nolatch_segs : list (list wbyte) :=
  [firstn 18 (writer_stream true nolatch_recs); skipn 18 (writer_stream true nolatch_recs)].

Theorem transient_without_latch_refuted :
  wf nolatch_recs /\
  oks (read_segs_nolatch 4 true nolatch_recs (mk_reader 0 false) [] nolatch_segs) = [[0; 5]] /\
  ~ is_prefix (oks (read_segs_nolatch 4 true nolatch_recs (mk_reader 0 false) [] nolatch_segs)) nolatch_recs.
Proof.
  assert (E : oks (read_segs_nolatch 4 true nolatch_recs (mk_reader 0 false) [] nolatch_segs) = [[0; 5]])
    by (vm_compute; reflexivity).
  split; [|split; [exact E|]].
  - unfold wf, nolatch_recs. repeat constructor; vm_compute; discriminate.
  - rewrite E. intros [t Ht]. discriminate Ht.
Qed.

(* C02: nothing is returned after an error *)
Theorem no_ok_after_error : forall dir recs fuel r input l1 e l2,
  read_all fuel dir recs r input = l1 ++ e :: l2 -> (forall p, e <> ROk p) -> oks l2 = [].
Proof.
  intros dir recs. induction fuel as [|f IH]; intros r input l1 e l2 H Hno.
  - destruct l1; discriminate.
  - (* Ho: what oks_read_all_S says of this run, read on l1 ++ e :: l2 *)
    pose proof (oks_read_all_S dir recs f r input) as Ho. rewrite H in Ho.
    cbn [read_all] in H. destruct (read_message dir recs r input) as [[res r'] rest].
    destruct l1 as [|x l1]; cbn [app] in H, Ho.
    + injection H as -> _.
      (* for an error e, Ho reads `oks (e :: l2) = []`, and `oks (e :: l2)` converts to `oks l2` *)
      destruct e as [p| |]; [exfalso; eapply Hno; reflexivity | exact Ho | exact Ho].
    + injection H as _ H.
      destruct res as [p| |]; [eapply IH; eassumption | eapply IH; eassumption | destruct l1; discriminate].
Qed.

Lemma oks_deviation : forall dir recs k input fuel,
  (forall p, nth_error recs k = Some p -> ~ is_prefix (record_tags dir (Z.of_nat k) p) input) ->
  oks (read_all fuel dir recs (mk_reader (2 * Z.of_nat k) false) input) = [].
Proof.
  intros dir recs k input [|f] Hdev; [reflexivity|].
  rewrite oks_read_all_S. pose proof (read_message_step dir recs k input) as E.
  destruct (read_message dir recs _ input) as [[[p| |] r'] rest]; try reflexivity.
  destruct E as (Hn & _ & Ein).
  destruct (Hdev p Hn). exists rest. assumption.
Qed.

(* n honest records and then anything: the one induction behind the round trip and the first deviation *)
Lemma read_all_honest : forall dir recs tail, wf recs -> forall j n fuel,
  (j + n <= length recs)%nat ->
  read_all fuel dir recs (mk_reader (2 * Z.of_nat j) false)
           (writer_stream_from dir (Z.of_nat j) (firstn n (skipn j recs)) ++ tail)
  = map ROk (firstn (Nat.min n fuel) (skipn j recs))
    ++ read_all (fuel - n) dir recs (mk_reader (2 * Z.of_nat (j + n)) false) tail.
Proof.
  intros dir recs tail Hwf j n. revert j. induction n as [|n IH]; intros j fuel Hle.
  - rewrite Nat.add_0_r, Nat.sub_0_r. reflexivity.
  - destruct (nth_error recs j) as [p|] eqn:Hp; [|apply nth_error_None in Hp; lia].
    assert (Hlen : len p <= 65535)
      by (unfold wf in Hwf; rewrite Forall_forall in Hwf; eapply Hwf, nth_error_In, Hp).
    rewrite (skipn_nth _ _ _ _ Hp). destruct fuel as [|f]; [reflexivity|].
    cbn [firstn writer_stream_from Nat.min Nat.sub map app].
    rewrite <- app_assoc. cbn [read_all].
    rewrite (read_message_honest dir recs j p _ Hp Hlen). f_equal.
    replace (Z.of_nat j + 1) with (Z.of_nat (S j)) by lia.
    replace (j + S n)%nat with (S j + n)%nat by lia.
    apply IH. lia.
Qed.

(* C02: the first deviation from the honest stream is an error *)
Theorem first_deviation_errors : forall dir recs k tail fuel, wf recs -> (k <= length recs)%nat ->
  (forall p, nth_error recs k = Some p -> ~ is_prefix (record_tags dir (Z.of_nat k) p) tail) ->
  oks (read_all fuel dir recs (mk_reader 0 false) (writer_stream dir (firstn k recs) ++ tail))
  = firstn (Nat.min k fuel) recs.
Proof.
  intros dir recs k tail fuel Hwf Hle Hdev.
  etransitivity; [exact (f_equal oks (read_all_honest dir recs tail Hwf 0%nat k fuel Hle))|].
  cbn [skipn Nat.add]. rewrite oks_app, oks_map_ok, oks_deviation by assumption. apply app_nil_r.
Qed.

(* C08: round trip; reader and writer use the same operation index for every record *)
Theorem roundtrip : forall dir recs, wf recs ->
  read_all (S (length recs)) dir recs (mk_reader 0 false) (writer_stream dir recs)
  = map ROk recs ++ [RErrShort].
Proof.
  intros dir recs Hwf.
  pose proof (read_all_honest dir recs [] Hwf 0%nat (length recs) (S (length recs)) (le_n _)) as H.
  cbn [skipn Nat.add] in H. rewrite app_nil_r, Nat.min_l, firstn_all in H by lia.
  replace (S (length recs) - length recs)%nat with 1%nat in H by lia.
  exact H.
Qed.

(* C02: bytes of the other direction (or junk) never open *)
Theorem cross_direction : forall dir recs input fuel,
  Forall (fun b => match b with Honest d _ _ => d = negb dir | Junk => True end) input ->
  oks (read_all fuel dir recs (mk_reader 0 false) input) = [].
Proof.
  intros dir recs input fuel Hin. apply (oks_deviation dir recs 0%nat).
  intros p _ [t ->]. destruct (record_tags_hd dir (Z.of_nat 0) p) as (t' & E).
  rewrite E in Hin. inversion Hin as [|? ? Hb _]. destruct dir; discriminate Hb.
Qed.

Example roundtrip_ex :
  read_all 3 true [[1; 2; 3]; []] (mk_reader 0 false) (writer_stream true [[1; 2; 3]; []])
  = [ROk [1; 2; 3]; ROk []; RErrShort].
Proof. vm_compute. reflexivity. Qed.

(* one altered byte in the second record: the first record is returned, then
   an error, then nothing *)
Example tamper_ex :
  let s := writer_stream true [[1; 2; 3]; [4]; [5]] in
  let s' := firstn 40 s ++ Junk :: skipn 41 s in
  read_all 5 true [[1; 2; 3]; [4]; [5]] (mk_reader 0 false) s'
  = [ROk [1; 2; 3]; RErrMac; RErrMac; RErrMac; RErrMac].
Proof. vm_compute. reflexivity. Qed.

(* key rotation: operation 999 is the last use of key 0, operation 1000 uses key 1 nonce 0 *)
Example rotation_ex : kn_iter 999 (0, 0) = (0, 999) /\ kn_iter 1000 (0, 0) = (1, 0) /\ kn_iter 2001 (0, 0) = (2, 1).
Proof. vm_compute. repeat split; reflexivity. Qed.

Print Assumptions kn_iter_spec.
Print Assumptions kn_of_inj.
Print Assumptions writer_all_sealed.
Print Assumptions writer_nodup.
Print Assumptions roundtrip.
Print Assumptions prefix_always.
Print Assumptions no_ok_after_error.
Print Assumptions first_deviation_errors.
Print Assumptions cross_direction.

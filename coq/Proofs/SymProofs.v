(* The symbolic Noise handshake (Model/Sym.v): refusals (C03), the version byte and the no-forgery
   hypothesis (C04). *)
From Coq Require Import ZArith List Bool.
From LNC Require Import Sym SymLemmas.
Import ListNotations.
Open Scope Z_scope.

(* the four scalars are pairwise distinct.  C03 and C04 state it as a hypothesis; no proof uses it: keys are
   compared as terms, and no equation between DH results is ever inverted (SymLemmas.dh_normal_form) *)
Definition wf (c : cfg) : Prop :=
  c_si c <> c_sr c /\ c_si c <> c_ei c /\ c_si c <> c_er c /\
  c_sr c <> c_ei c /\ c_sr c <> c_er c /\ c_ei c <> c_er c.

(* all four version bounds are versions that exist; write_act and read_act refuse any other *)
Definition vr (c : cfg) : Prop :=
  0 <= c_mini c <= 2 /\ 0 <= c_maxi c <= 2 /\ 0 <= c_minr c <= 2 /\ 0 <= c_maxr c <= 2.

Theorem responder_silent : forall c adv,
  (exists o, r_resp (run c adv) = o /\ (o = Failed 1 \/ o = BadConfig)) ->
  r_resp_out (run c adv) = [] /\ (length (r_wire (run c adv)) <= 1)%nat.
Proof.
  intros c adv (o & Ho & Hd). revert Ho. unfold run, run_pair.
  destruct (mk_init c) as [pi|], (mk_resp c) as [pr|]; cbn; try (intros; split; auto; fail).
  destruct (c_kk c).
  - unfold run_kk.
    destruct (write_act pi [Te; Tes; Tss] 1) as [[i1 m1]|]; cbn; [|auto].
    destruct (read_act pr [Te; Tes; Tss] 1 (adv 1 m1)) as [r1|]; cbn; [|auto].
    destruct (write_act r1 [Te; Tee; Tse] 2) as [[r2 m2]|]; cbn;
      [|intros <-; destruct Hd; discriminate].
    destruct (read_act i1 [Te; Tee; Tse] 2 (adv 2 m2)) as [i2|]; cbn;
      intros <-; destruct Hd; discriminate.
  - unfold run_xx.
    destruct (write_act pi [Tme] 1) as [[i1 m1]|]; cbn; [|auto].
    destruct (read_act pr [Tme] 1 (adv 1 m1)) as [r1|]; cbn; [|auto].
    destruct (write_act r1 [Te; Tee; Ts; Tes] 2) as [[r2 m2]|]; cbn;
      [|intros <-; destruct Hd; discriminate].
    destruct (read_act i1 [Te; Tee; Ts; Tes] 2 (adv 2 m2)) as [i2|]; cbn;
      [|intros <-; destruct Hd; discriminate].
    destruct (write_act i2 [Ts; Tse] 3) as [[i3 m3]|]; cbn;
      [|intros <-; destruct Hd; discriminate].
    destruct (read_act r2 [Ts; Tse] 3 (adv 3 m3)) as [r3|]; cbn;
      intros <-; destruct Hd; discriminate.
Qed.

Lemma mk_init_role : forall c p, mk_init c = Some p -> p_init p = true.
Proof.
  intros c p. unfold mk_init.
  destruct (c_kk c); [rewrite new_party_kk; destruct (_ <? 2); [discriminate|] | rewrite new_party_xx];
    intro H; injection H as <-; reflexivity.
Qed.

Lemma mk_resp_fields : forall c p, mk_resp c = Some p ->
  p_init p = false /\ p_version p = c_maxr c /\ p_payload_len p = c_plen c.
Proof.
  intros c p. unfold mk_resp.
  destruct (c_kk c); [rewrite new_party_kk; destruct (_ <? 2); [discriminate|] | rewrite new_party_xx];
    intro H; injection H as <-; auto.
Qed.

Theorem version_agreement_if_bytes_kept : forall c adv si sr,
  keeps_version adv ->
  r_init (run c adv) = Completed si -> r_resp (run c adv) = Completed sr ->
  s_version si = s_version sr.
Proof.
  intros c adv si sr KV Hi Hr.
  destruct (run_completed c adv) as (pi & pr & Ei & Er & ER); [rewrite Hi; reflexivity|].
  rewrite ER in Hi, Hr.
  apply mk_init_role in Ei. apply mk_resp_fields in Er. destruct Er as (Ir & _).
  (* the responder never changes its version; the initiator takes the first field of act 2, which the
     responder wrote from its own *)
  destruct (c_kk c).
  - destruct (run_kk_completed _ _ _ _ Hi) as (i1 & m1 & r1 & r2 & m2 & i2 & W1 & R1 & W2 & R2 & E).
    rewrite E in Hi, Hr. injection Hi as <-. injection Hr as <-.
    apply write_act_fixed in W1. destruct W1 as (F1 & _).
    apply read_act_fixed in R1. destruct R1 as (v1 & _ & G1 & Vr1).
    apply write_act_fixed in W2. destruct W2 as (_ & Vr2 & H2).
    apply read_act_fixed in R2. destruct R2 as (v2 & Hv2 & _ & Vi2).
    rewrite KV, H2 in Hv2. injection Hv2 as <-.
    replace (p_init i1) with true in Vi2 by (unfold fixed_part in F1; congruence).
    cbn in Vi2. cbn [finish s_version]. congruence.
  - destruct (run_xx_completed _ _ _ _ Hr)
      as (i1 & m1 & r1 & r2 & m2 & i2 & i3 & m3 & r3 & W1 & R1 & W2 & R2 & W3 & R3 & E).
    rewrite E in Hi, Hr. injection Hi as <-. injection Hr as <-.
    apply write_act_fixed in W1. destruct W1 as (F1 & _).
    apply read_act_fixed in R1. destruct R1 as (v1 & _ & G1 & Vr1).
    apply write_act_fixed in W2. destruct W2 as (G2 & Vr2 & H2).
    apply read_act_fixed in R2. destruct R2 as (v2 & Hv2 & _ & Vi2).
    apply write_act_fixed in W3. destruct W3 as (_ & Vi3 & _).
    apply read_act_fixed in R3. destruct R3 as (v3 & _ & _ & Vr3).
    rewrite KV, H2 in Hv2. injection Hv2 as <-.
    replace (p_init i1) with true in Vi2 by (unfold fixed_part in F1; congruence).
    cbn in Vi2, Vr3. cbn [finish s_version]. congruence.
Qed.

Theorem v0_large_payload_rejected : forall c adv,
  c_kk c = false -> c_maxr c = 0 -> 498 < c_plen c ->
  completed (r_resp (run c adv)) = false /\ completed (r_init (run c adv)) = false.
Proof.
  intros c adv K M L. unfold run, run_pair. rewrite K.
  destruct (mk_init c) as [pi|] eqn:Ei, (mk_resp c) as [pr|] eqn:Er; cbn; auto.
  unfold run_xx.
  destruct (write_act pi [Tme] 1) as [[i1 m1]|]; cbn; auto.
  destruct (read_act pr [Tme] 1 (adv 1 m1)) as [r1|] eqn:R1; cbn; auto.
  apply mk_resp_fields in Er. destruct Er as (Ir & Vr & Lr).
  apply read_act_fixed in R1. destruct R1 as (v1 & _ & F & V1).
  rewrite Ir, andb_false_r in V1.
  rewrite write_act_v0_big; cbn; auto; unfold fixed_part in F; congruence.
Qed.

(* the reader's handshake hash differs from the writer's, so the act-1 seal does not open *)
Theorem xx_wrong_passphrase : forall c, c_kk c = false -> c_pwi c <> c_pwr c ->
  completed (r_resp (run c faithful)) = false /\ completed (r_init (run c faithful)) = false /\
  r_resp_out (run c faithful) = [].
Proof.
  intros c K PW. unfold run, run_pair, mk_init, mk_resp. rewrite K, !new_party_xx. unfold run_xx, faithful.
  destruct (write_act _ [Tme] 1) as [[i1 m1]|] eqn:W1; [|cbn; auto].
  apply write_act_spec in W1. destruct W1 as (p1 & out & W & _ & _ & -> & ->).
  pnorm in W. injection W as <- <-.
  destruct (read_act _ [Tme] 1 _) as [r1|] eqn:R1; [exfalso | cbn; auto].
  apply read_act_spec in R1. destruct R1 as (v & fs & q & rest & x & E & _ & _ & RT & S & _).
  pnorm in E. injection E as <- <-.
  pnorm in RT. rewrite unmask_mask_neq in RT by exact PW. injection RT as <- <-.
  (* S : the seal the initiator made = the seal the responder opens.  Under seal_of, hd and mix_hash their
     associated data are Hash h (Pub (Priv ei)) and Hash h (Unmask (Mask ..) pwr) *)
  pnorm in S. discriminate S.
Qed.

(* the pre-message hashes Hash (Hash h0 (Pub si)) exp_i and Hash (Hash h0 exp_r) (Pub sr) already differ *)
Theorem kk_key_mismatch : forall c, c_kk c = true ->
  c_exp_i c <> Pub (Priv (c_sr c)) \/ c_exp_r c <> Pub (Priv (c_si c)) ->
  completed (r_resp (run c faithful)) = false /\ completed (r_init (run c faithful)) = false /\
  r_resp_out (run c faithful) = [].
Proof.
  intros c K NE. unfold run, run_pair, mk_init, mk_resp. rewrite K, !new_party_kk.
  destruct (c_maxi c <? 2), (c_maxr c <? 2); try (repeat split; reflexivity).
  unfold run_kk, faithful.
  destruct (write_act _ _ 1) as [[i1 m1]|] eqn:W1; [|cbn; auto].
  apply write_act_spec in W1. destruct W1 as (p1 & out & W & _ & _ & -> & ->).
  pnorm in W. injection W as <- <-.
  destruct (read_act _ _ 1 _) as [r1|] eqn:R1; [exfalso | cbn; auto].
  apply read_act_spec in R1. destruct R1 as (v & fs & q & rest & x & E & _ & _ & RT & S & _).
  pnorm in E. injection E as <- <-.
  pnorm in RT. injection RT as <- <-.
  (* S as for XX.  Under seal_of, key / hd and mix_key / mix_hash: two equations between DH results from the
     keys, which are not needed, and from the hashes exp_r = Pub si and exp_i = Pub sr *)
  pnorm in S. injection S as _ _ Er Ei. destruct NE; congruence.
Qed.

(* no_forgery, as defined in Sym.v, quantifies over EVERY input message m of the adversary, not only over
   the messages of the run.  An adversary that forwards its input (faithful, version_swap) therefore does
   not satisfy it: fed a message with a foreign seal it delivers that seal. *)
Lemma forwarder_forges : forall c adv f,
  adv 1 [f] = [f] -> is_seal f = true -> existsb (term_eqb f) (concat (r_wire (run c adv))) = false ->
  ~ no_forgery c adv.
Proof.
  intros c adv f Hadv Hs Hout NF.
  destruct (NF 1 [f] f) as (m' & Hm & Hf); [rewrite Hadv; left; reflexivity | exact Hs |].
  enough (existsb (term_eqb f) (concat (r_wire (run c adv))) = true) by congruence.
  apply existsb_exists. exists f. split; [apply in_concat; eauto | apply term_eqb_refl].
Qed.

Theorem no_forgery_faithful_false : ~ no_forgery (example_cfg false 0 2 0 2) faithful.
Proof. apply (forwarder_forges _ _ (Seal Empty 0 Empty Empty)); reflexivity. Qed.

Theorem no_forgery_version_swap_false : ~ no_forgery (example_cfg false 0 2 0 2) version_swap.
Proof. apply (forwarder_forges _ _ (Seal Empty 0 Empty Empty)); reflexivity. Qed.

(* The intended reading: the condition restricted to the messages of the run (act a's message is
   the a-th element of r_wire).  It is implied by no_forgery, so theorems assuming it are
   stronger.  m' ranges over the whole run, so at act a the adversary may also deliver a seal of a later
   act; that is harmless: SymTamper.which_seal goes through the seals of all acts anyway. *)
Definition no_forgery_run (c : cfg) (adv : adversary) : Prop :=
  forall a m f, nth_error (r_wire (run c adv)) (Z.to_nat (a - 1)) = Some m -> 1 <= a ->
    In f (adv a m) -> is_seal f = true ->
    exists m', In m' (r_wire (run c adv)) /\ In f m'.

Lemma no_forgery_run_weaker : forall c adv, no_forgery c adv -> no_forgery_run c adv.
Proof. intros c adv NF a m f _ _. apply NF. Qed.

Lemma version_swap_in : forall a m f, In f (version_swap a m) -> is_seal f = true -> In f m.
Proof.
  intros a m f H S. unfold version_swap in H.
  destruct m as [|x rest]; auto. destruct x; auto. destruct b as [|v l]; auto. destruct l; auto.
  destruct ((a =? 2) && (v =? 2)).
  - destruct H as [<-|H]; [discriminate | right; exact H].
  - destruct ((a =? 3) && (v =? 1)); auto.
    destruct H as [<-|H]; [discriminate | right; exact H].
Qed.

Lemma faithful_no_forgery_run : forall c, no_forgery_run c faithful.
Proof.
  intros c a m f Hn _ Hin _. exists m. split; [eapply nth_error_In; eauto | exact Hin].
Qed.

Lemma version_swap_no_forgery_run : forall c, no_forgery_run c version_swap.
Proof.
  intros c a m f Hn _ Hin Hs. exists m. split; [eapply nth_error_In; eauto |].
  eapply version_swap_in; eauto.
Qed.

(* no_forgery itself is met by an adversary that never delivers a foreign seal whatever it is fed:
   one that takes its seals from its input, behind a filter that drops every seal not in W, for W
   the fields transmitted in its own run (which the filter then leaves as it was). *)
Definition restrict (W : list term) (adv : adversary) : adversary :=
  fun a m => adv a (filter (fun f => negb (is_seal f) || existsb (term_eqb f) W) m).

Lemma restrict_no_forgery : forall c adv,
  (forall a m f, In f (adv a m) -> is_seal f = true -> In f m) ->
  let adv' := restrict (concat (r_wire (run c adv))) adv in
  run c adv' = run c adv -> no_forgery c adv'.
Proof.
  intros c adv Hadv adv' E a m f Hin Hs. rewrite E.
  apply Hadv, filter_In in Hin; [|exact Hs]. destruct Hin as [_ Hok]. rewrite Hs in Hok.
  apply existsb_exists in Hok. destruct Hok as (x & Hx & Ex). apply term_eqb_true in Ex. subst x.
  apply in_concat in Hx. destruct Hx as (m' & H1 & H2). eauto.
Qed.

Definition swap_cfg : cfg := example_cfg false 0 2 0 2.
Definition swap_adv : adversary := restrict (concat (r_wire (run swap_cfg version_swap))) version_swap.

Lemma swap_adv_same_run : run swap_cfg swap_adv = run swap_cfg version_swap.
Proof. vm_compute. reflexivity. Qed.

Theorem tamper_version_refuted : exists c adv si sr,
  no_forgery c adv /\ r_init (run c adv) = Completed si /\ r_resp (run c adv) = Completed sr /\
  s_version si <> s_version sr /\ s_set_remote si <> s_set_remote sr.
Proof.
  exists swap_cfg, swap_adv. eexists. eexists.
  split; [exact (restrict_no_forgery swap_cfg version_swap version_swap_in swap_adv_same_run)|].
  rewrite swap_adv_same_run.
  split; [vm_compute; reflexivity|]. split; [vm_compute; reflexivity|].
  split; vm_compute; discriminate.
Qed.

Theorem tamper_version_refuted_run : exists c adv si sr,
  no_forgery_run c adv /\ r_init (run c adv) = Completed si /\ r_resp (run c adv) = Completed sr /\
  s_version si <> s_version sr /\ s_set_remote si <> s_set_remote sr.
Proof.
  destruct tamper_version_refuted as (c & adv & si & sr & NF & H).
  exists c, adv, si, sr. split; [apply no_forgery_run_weaker, NF | exact H].
Qed.

Print Assumptions term_eqb_eq.
Print Assumptions dh_normal_form.
Print Assumptions unmask_mask.
Print Assumptions xx_wrong_passphrase.
Print Assumptions kk_key_mismatch.
Print Assumptions responder_silent.
Print Assumptions no_forgery_faithful_false.
Print Assumptions tamper_version_refuted_run.
Print Assumptions tamper_version_refuted.
Print Assumptions version_agreement_if_bytes_kept.
Print Assumptions v0_large_payload_rejected.

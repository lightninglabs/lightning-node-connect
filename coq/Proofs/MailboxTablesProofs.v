(* `calls_to f` of Model/MailboxTables.v asks of every call of the package whether its callee is the name of a
   function (if not, it is Interface.method, a call through an interface), by a scan of function_table, and
   `inh_round` evaluates it for every f: function_table is scanned |functions| * |calls| times. The answer depends
   on the call only. `calls_to_rows` is the same list computed from the calls with that answer written beside each
   of them once; C18 rewrites with it before it evaluates. (The VM does not mind the repetition; coqchk checks an
   evaluation by lazy conversion, where the repeated scans outweigh the rest of the theorem many times.) *)
From Coq Require Import String List Bool.
From LNC Require Import MailboxTables.

Lemma filter_decorated {A B} (g : A -> B) (p : A -> bool) (q : A -> B -> bool) (l : list A) :
  (forall a, p a = q a (g a)) ->
  filter p l = map fst (filter (fun x => q (fst x) (snd x)) (map (fun a => (a, g a)) l)).
Proof.
  intros E. induction l as [|a l IH]; simpl; [reflexivity|].
  rewrite <- E. destruct (p a); simpl; now rewrite IH.
Qed.

(* every call with: is its callee no function name (a call through an interface), and the callee's last name
   segment *)
Definition call_rows : list ((string * string * list string) * (bool * string)) :=
  map (fun r => (r, (negb (mem (snd (fst r)) M.function_table), short_name (snd (fst r))))) M.call_lock_table.

Definition calls_to_rows (f : string) : list (string * string * list string) :=
  let sf := short_name f in
  map fst (filter (fun x => String.eqb (snd (fst (fst x))) f || (fst (snd x) && String.eqb (snd (snd x)) sf))
                  call_rows).

Lemma calls_to_rows_eq f : calls_to f = calls_to_rows f.
Proof.
  apply (filter_decorated _ _ (fun r d => String.eqb (snd (fst r)) f || (fst d && String.eqb (snd d) (short_name f)))).
  reflexivity.
Qed.

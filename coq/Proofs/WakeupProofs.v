From Coq Require Import Arith List Lia.
From LNC Require Import Wakeup.
Import ListNotations.

(* with a buffer, a freed window is never left unnoticed.  The clause for SGap is needed because the step from
   SGap to SWait does not test the window again: when the window is freed and signalled while the send loop is
   between its test ("full") and its wait, only the buffered signal will end that wait *)
Definition WInv (st : ws) : Prop :=
  (w_rsig st = true -> w_free st = true) /\
  (w_free st = true -> w_rsig st = false ->
     (w_spc st = SWait -> w_pend st > 0) /\ (w_spc st = SGap -> w_pend st > 0)).

Lemma winv_init : forall acks, WInv (winit acks).
Proof. intros acks. split; cbn; intros; discriminate. Qed.

Lemma bump_pos : forall cap p, cap >= 1 -> (if p <? cap then S p else p) > 0.
Proof. intros cap p H. destruct (Nat.ltb_spec p cap); lia. Qed.

Lemma winv_step : forall cap st who st', cap >= 1 -> WInv st -> wstep cap st who = Some st' -> WInv st'.
Proof.
  intros cap [free pend pc rsig acks] who st' Hcap [H1 H2] Hs.
  unfold wstep in Hs. cbn [w_free w_pend w_spc w_rsig w_acks] in *.
  destruct who.
  - destruct pc.
    + injection Hs as <-. split; cbn; [assumption|]. intros Hf Hr. specialize (H2 Hf Hr).
      rewrite Hf. split; intros; discriminate.
    + injection Hs as <-. split; cbn; [assumption|]. intros Hf Hr. specialize (H2 Hf Hr).
      destruct H2 as [_ Hg]. split; [intros _; apply Hg; reflexivity | intros; discriminate].
    + destruct pend as [|p]; [discriminate|]. injection Hs as <-. split; cbn; [assumption|].
      intros Hf Hr. split; intros; discriminate.
    + discriminate.
  - destruct rsig.
    + (* the signal is handed to a waiting send loop, which goes back to test the window, or it is buffered:
         that is where cap >= 1 is needed *)
      pose proof (H1 eq_refl) as Hf.
      destruct pc; destruct pend as [|p]; injection Hs as <-;
        (split; cbn [w_free w_pend w_spc w_rsig w_acks]; [intros; discriminate|]);
        intros _ _; (split; intros E; try discriminate E); apply bump_pos; assumption.
    + destruct acks as [|a]; [discriminate|]. injection Hs as <-. split; cbn; [reflexivity|].
      intros _ Hr. discriminate.
Qed.

Lemma winv_run : forall cap sched st, cap >= 1 -> WInv st -> WInv (wrun cap st sched).
Proof.
  intros cap sched. induction sched as [|who rest IH]; intros st Hcap HI; cbn [wrun]; [assumption|].
  apply IH; [assumption|]. destruct (wstep cap st who) as [st'|] eqn:E; [|assumption].
  eapply winv_step; eassumption.
Qed.

(* the model covers ONE window-full episode: SProceed is terminal, and the window is never marked full again *)
Lemma free_step : forall cap st who st', wstep cap st who = Some st' -> w_free st = true -> w_free st' = true.
Proof.
  intros cap [free pend pc rsig acks] who st' Hs Hf. unfold wstep in Hs. cbn in *. subst free.
  destruct who.
  - destruct pc; try discriminate; try (injection Hs as <-; reflexivity).
    destruct pend; [discriminate | injection Hs as <-; reflexivity].
  - destruct rsig.
    + destruct pc; destruct pend; injection Hs as <-; reflexivity.
    + destruct acks; [discriminate | injection Hs as <-; reflexivity].
Qed.

Lemma winv_reach : forall cap acks sched, cap >= 1 -> WInv (wrun cap (winit acks) sched).
Proof. intros cap acks sched Hcap. apply winv_run; [assumption | apply winv_init]. Qed.

(* C13: the pong timer can be started, without a probe being sent, only while the send loop sits in its "window is
   full" wait. Whenever it sits there with a window that has meanwhile been freed (and the receive loop has finished
   signalling), a wake-up is buffered, so the signal case of its select is ready. No more than that: the timer
   cases are not in the model, and Go's select picks at random among the ready cases *)
Theorem full_window_wait_is_about_to_end : forall cap acks sched,
  cap >= 1 -> let st := wrun cap (winit acks) sched in
  w_spc st = SWait -> w_free st = true -> w_rsig st = false -> w_pend st > 0.
Proof.
  intros cap acks sched Hcap st Hw Hf Hr.
  destruct (winv_reach cap acks sched Hcap) as [_ H2]. destruct (H2 Hf Hr) as [Hwait _]. exact (Hwait Hw).
Qed.

(* C09/C13: whatever the interleaving of the two loops, once the receive loop has processed an acknowledgement
   and has nothing left to do, the send loop is never left waiting with nothing to wake it *)
Theorem buffered_signal_never_stuck : forall cap acks sched,
  cap >= 1 -> let st := wrun cap (winit acks) sched in w_free st = true -> stuck st = false.
Proof.
  intros cap acks sched Hcap st Hf.
  pose proof (full_window_wait_is_about_to_end cap acks sched Hcap) as H. cbv zeta in H. fold st in H.
  unfold stuck.
  destruct (w_spc st); try reflexivity.
  destruct (w_pend st); try reflexivity.
  destruct (w_rsig st); try reflexivity.
  specialize (H eq_refl Hf eq_refl). lia.
Qed.

(* ... and from there the send loop reaches the point where it takes new data within three of its own steps *)
Theorem buffered_signal_proceeds : forall cap acks sched,
  cap >= 1 -> let st := wrun cap (winit acks) sched in
  w_free st = true -> w_rsig st = false ->
  w_spc (wrun cap st [true; true; true]) = SProceed.
Proof.
  intros cap acks sched Hcap st Hf Hr.
  pose proof (winv_reach cap acks sched Hcap) as HI. fold st in HI.
  destruct HI as [_ H2]. destruct (H2 Hf Hr) as [Hw Hg].
  destruct st as [free pend pc rsig ak]. cbn [w_free w_rsig w_spc w_pend] in *. subst free rsig.
  destruct pc.
  - reflexivity.
  - specialize (Hg eq_refl). destruct pend as [|p]; [lia|]. reflexivity.
  - specialize (Hw eq_refl). destruct pend as [|p]; [lia|]. reflexivity.
  - reflexivity.
Qed.

(* without a buffer the wake-up is lost: the send loop tests (full), the receive loop frees the window and
   signals (nobody waits: dropped), the send loop starts waiting *)
Theorem unbuffered_signal_refuted :
  let st := wrun 0 (winit 1) [true; false; false; true] in
  w_free st = true /\ stuck st = true.
Proof. vm_compute. split; reflexivity. Qed.

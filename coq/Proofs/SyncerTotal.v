(* Totality of the generated syncer.initResendUpTo (gen/SyncerGen.v, from gbn/syncer.go); kept apart from
   Proofs/SyncerProofs.v so that C07 (no crash) depends on nothing about WHICH acknowledgement is expected. *)
From LNC Require Import GoLite SyncerGen.
Open Scope Z_scope.

(* totality: with a non-empty sequence space no value of top makes the call panic; with s = 0 (what a window
   proposal of 255 would give, s = n + 1 in uint8) it always does: the reason the handshake must reject it *)
Lemma initResendUpTo_total : forall c top, syncer_s c <> 0 -> syncer_initResendUpTo c top <> Panic.
Proof.
  intros [s st ea en] top Hs; cbn [syncer_s] in Hs.
  unfold syncer_initResendUpTo; cbn [set_syncer_state syncer_s].
  rewrite umod_ok by exact Hs. discriminate.
Qed.

Lemma initResendUpTo_empty_space_panics : forall c top, syncer_s c = 0 -> syncer_initResendUpTo c top = Panic.
Proof.
  intros [s st ea en] top Hs; cbn [syncer_s] in Hs; subst s. reflexivity.
Qed.

(* Proofs about the generated GetSID (gen/SidGen.v, from mailbox/server.go):
   the server-to-client stream id is the session id itself, the
   client-to-server id is the session id with the low bit of its last byte
   flipped; the two always differ, and only in the last byte. *)
From LNC Require Import GoLite SidGen.
Open Scope Z_scope.

Lemma split_last : forall A (l : list A) (n : Z),
  0 <= n -> len l = n + 1 -> exists front last, l = front ++ [last] /\ len front = n.
Proof.
  intros A l n Hn Hl.
  assert (l <> []) as Hne by (intros ->; cbn in Hl; lia).
  destruct (exists_last Hne) as (front & last & ->).
  exists front, last. split; [reflexivity|].
  rewrite len_app, len_cons, len_nil in Hl. lia.
Qed.

Lemma lxor_1_neq : forall x, Z.lxor x 1 <> x.
Proof.
  intros x H.
  assert (Z.lxor x (Z.lxor x 1) = Z.lxor x x) as H2 by (rewrite H; reflexivity).
  rewrite Z.lxor_nilpotent, <- Z.lxor_assoc, Z.lxor_nilpotent, Z.lxor_0_l in H2.
  discriminate.
Qed.

(* the computation, for a session id of any size: the last cell of the fresh 64-byte buffer is flipped *)
Lemma getsid_c2s_buf : forall sid front last,
  copy_into (zeros 64) sid = front ++ [last] -> len front = 63 ->
  GetSID sid false = Ok (front ++ [Z.lxor last 1]).
Proof.
  intros sid front last Hb Hf. unfold GetSID.
  rewrite Hb, (idx_app front last [] 63 Hf). cbn [bind].
  rewrite (upd_app front last [] _ 63 Hf). reflexivity.
Qed.

(* a session id of any size: the fresh buffer always has 64 entries, so GetSID
   never panics (a short id is zero-padded, a long one cut, by copy) *)
Theorem getsid_never_panics : forall sid d, is_ok (GetSID sid d) = true.
Proof.
  intros sid [|]; [reflexivity|].
  destruct (split_last _ (copy_into (zeros 64) sid) 63) as (front & last & Hb & Hf);
    [lia | apply len_copy_into |].
  rewrite (getsid_c2s_buf sid front last Hb Hf). reflexivity.
Qed.

(* a 64-byte id fills the buffer *)
Lemma getsid_c2s_split : forall front last,
  length front = 63%nat ->
  GetSID (front ++ [last]) false = Ok (front ++ [Z.lxor last 1]).
Proof.
  intros front last Hf. assert (len front = 63) as Hf' by (unfold len; lia).
  apply getsid_c2s_buf; [|exact Hf'].
  apply copy_into_zeros. rewrite len_app, Hf'. reflexivity.
Qed.

Section GetSID.
  Variable sid : list Z.
  Hypothesis Hsid : len sid = 64.

  Theorem getsid_s2c : GetSID sid true = Ok sid.
  Proof. reflexivity. Qed.

  Theorem getsid_c2s : exists front last,
    sid = front ++ [last] /\ length front = 63%nat /\
    GetSID sid false = Ok (front ++ [Z.lxor last 1]).
  Proof.
    destruct (split_last _ sid 63 ltac:(lia) Hsid) as (front & last & -> & Hf).
    assert (length front = 63%nat) as Hf' by (unfold len in Hf; lia).
    exists front, last. split; [reflexivity|]. split; [assumption|].
    apply getsid_c2s_split. assumption.
  Qed.

  Theorem getsid_differ : forall a b,
    GetSID sid true = Ok a -> GetSID sid false = Ok b ->
    a <> b /\ firstn 63 a = firstn 63 b.
  Proof.
    intros a b Ha Hb. rewrite getsid_s2c in Ha. injection Ha as <-.
    destruct getsid_c2s as (front & last & Hs & Hf & Hc).
    rewrite Hc in Hb. injection Hb as <-. rewrite Hs. split.
    - intro H. apply app_inv_head in H. injection H as H.
      symmetry in H. exact (lxor_1_neq last H).
    - rewrite !firstn_app, Hf, Nat.sub_diag. reflexivity.
  Qed.

  (* the client-to-server id is again a 64-byte id, and flipping it again gives the session id back *)
  Theorem getsid_involutive : forall a,
    GetSID sid false = Ok a -> len a = 64 /\ GetSID a false = Ok sid.
  Proof.
    intros a Ha.
    destruct getsid_c2s as (front & last & Hs & Hf & Hc).
    rewrite Hc in Ha. injection Ha as <-. split.
    - rewrite len_app. unfold len. cbn [length]. lia.
    - rewrite (getsid_c2s_split front _ Hf), Hs.
      rewrite Z.lxor_assoc, Z.lxor_nilpotent, Z.lxor_0_r. reflexivity.
  Qed.

  Theorem getsid_total : forall d, is_ok (GetSID sid d) = true.
  Proof using Hsid. exact (getsid_never_panics sid). Qed.
End GetSID.

Print Assumptions getsid_s2c.
Print Assumptions getsid_c2s.
Print Assumptions getsid_differ.
Print Assumptions getsid_involutive.
Print Assumptions getsid_total.
Print Assumptions getsid_never_panics.
